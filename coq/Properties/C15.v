(* C15 - WebTorrent JSON codec round-trips; 20-byte identifiers are exact.
   Tree level (serde-derive shape of every message).  The JSON text layer - serde_json's printer
   and simd-json's tokenizer - is not modelled; the correspondence bridges it with
   serde_json::Value and checks text = binary frames on the implementation. *)
From Coq Require Import String.
From Aquatic Require Import WsCodec WsCodecFacts.
Local Open Scope N_scope.

(* a 20-byte identifier is encoded as the 20 characters with those code points, and EXACTLY the
   strings of exactly 20 characters U+0000..U+00FF are accepted: no shorter, no longer, no other
   characters *)
Theorem C15_id_exact : forall s bs,
  dec20 s = Some bs <-> length s = 20%nat /\ Forall (fun c => c <= 255) s /\ bs = s.
Proof. exact dec20_exact. Qed.
Print Assumptions C15_id_exact.

Theorem C15_id_roundtrip : forall b, length b = 20%nat -> Forall (fun c => c <= 255) b -> dec20 (enc20 b) = Some b.
Proof. intros b Hl Hb. apply dec20_exact. auto. Qed.
Print Assumptions C15_id_roundtrip.

Theorem C15_id_rejects_other_lengths : forall s, length s <> 20%nat -> dec20 s = None.
Proof. intros s H. destruct (dec20 s) eqn:E; [|reflexivity]. apply dec20_exact in E. tauto. Qed.
Print Assumptions C15_id_rejects_other_lengths.

Theorem C15_id_rejects_wide_char : forall s c, In c s -> 255 < c -> dec20 s = None.
Proof.
  intros s c Hin Hc. destruct (dec20 s) eqn:E; [|reflexivity]. apply dec20_exact in E. destruct E as (_ & Hb & _).
  rewrite Forall_forall in Hb. specialize (Hb c Hin). lia.
Qed.
Print Assumptions C15_id_rejects_wide_char.

(* every announce - any event or none, left absent/0/positive, with offers (any number, arbitrary
   SDP text), with an answer, every optional field present or absent - survives the mapping to a
   JSON tree and back; the untagged InMessage picks the right variant *)
Theorem C15_announce_tree_roundtrip : forall a,
  announce_ok a -> of_in_json (in_json (InAnnounce a)) = Some (InAnnounce a).
Proof.
  intros a (Hih & Hpid & Hl & Hn & Hos & Hto & Hoi). unfold of_in_json, in_json. rewrite of_announce_json.
  rewrite (proj2 (id_field _ Hih)), (proj2 (id_field _ Hpid)).
  rewrite (opt_field_json _ _ _ num_field _ Hl), (opt_field_json _ _ _ num_field _ Hn).
  rewrite (opt_field_json _ _ _ offers_field _ Hos).
  rewrite (opt_field_json _ _ _ id_field _ Hto), (opt_field_json _ _ _ id_field _ Hoi).
  destruct a; reflexivity.
Qed.
Print Assumptions C15_announce_tree_roundtrip.

(* scrapes with no, one (a bare string) or several (an array) info hashes *)
Theorem C15_scrape_tree_roundtrip : forall h,
  hashes_ok h -> of_in_json (in_json (InScrape h)) = Some (InScrape h).
Proof.
  intros h H. unfold of_in_json, in_json.
  (* the announce variant is tried first and fails: a scrape has no "peer_id" entry *)
  change (of_announce _) with (@None wannounce). unfold of_scrape. cbn [jget String.eqb Ascii.eqb Bool.eqb].
  change (str_is (jstr "scrape") "scrape") with true.
  rewrite (opt_field_json _ _ _ hashes_field h H). reflexivity.
Qed.
Print Assumptions C15_scrape_tree_roundtrip.

(* non-vacuity: an announce with two offers and an answer *)
Example C15_example :
  let i := repeat 255 20 in
  let a := mkWann i (repeat 0 20) (Some 0) (Some WEvStopped) (Some [mkWoffer [34; 92; 128512] i; mkWoffer [] i]) None
                  (Some [10]) (Some i) (Some i) in
  announce_ok a /\ of_in_json (in_json (InAnnounce a)) = Some (InAnnounce a).
Proof.
  cbv zeta. split; [|vm_compute; reflexivity].
  assert (Hi : forall b, b <= 255 -> id_ok (repeat b 20)).
  { intros b Hb. split; [reflexivity|apply ListFacts.Forall_repeat, Hb]. }
  pose proof (Hi 255 ltac:(lia)) as H255. pose proof (Hi 0 ltac:(lia)) as H0.
  unfold announce_ok. cbn [wa_info_hash wa_peer_id wa_left wa_numwant wa_offers wa_to_peer_id wa_offer_id onum_ok oid_ok].
  split; [exact H255|]. split; [exact H0|]. split; [unfold usize_max; lia|]. split; [exact I|].
  split; [|split; exact H255].
  apply Forall_cons; [exact H255|apply Forall_cons; [exact H255|apply Forall_nil]].
Qed.
