(* C10 - peers (and WebTorrent offers, see C10ws.v) expire exactly at their deadline, never
   earlier.  The clock is the worker's whole-second u32 time sample. *)
From Aquatic Require Import RefSwarm HttpSwarm Expiry PeerMapFacts PeerMapRefine SwarmCommon
     UdpSwarmRefine HttpSwarmRefine.

(* the deadline set at an announce is sample + max age (ValidUntil::new saturates at u32::MAX) *)
Theorem C10_deadline_exact : forall sample age,
  (sample + age <= u32_max)%N -> valid_until_new sample age = (sample + age)%N.
Proof. intros sample age H. unfold valid_until_new. apply N.min_l, H. Qed.
Print Assumptions C10_deadline_exact.

(* an entry is valid at clock [now] iff now is before the deadline: never early for any clock
   value a u32 can show, never late *)
Theorem C10_never_early : forall sample age now,
  (now <= u32_max)%N -> (now < sample + age)%N -> (now < u32_max)%N \/ (sample + age <= u32_max)%N ->
  vu_valid (valid_until_new sample age) now = true.
Proof.
  intros sample age now Hn Hlt Hor. apply N.ltb_lt. unfold valid_until_new. destruct Hor; lia.
Qed.
Print Assumptions C10_never_early.

Theorem C10_never_late : forall sample age now,
  (sample + age <= now)%N -> vu_valid (valid_until_new sample age) now = false.
Proof. intros sample age now H. apply N.ltb_ge. unfold valid_until_new. lia. Qed.
Print Assumptions C10_never_late.

(* a cleaning pass at [now] keeps exactly the entries whose deadline is still in the future -
   inline or heap representation, any capacity, any number of other peers *)
Theorem C10_clean_exact : forall cap shrink pc pm now pm' cnt msgs,
  pmap_inv cap shrink pm ->
  pm_clean cap shrink pc pm now = Ok (pm', cnt, msgs) ->
  forall k p, In (k, p) (pm_entries pm') <-> In (k, p) (pm_entries pm) /\ (now < p_until p)%N.
Proof.
  intros cap shrink pc pm now pm' cnt msgs Hinv Hc k p.
  rewrite (pm_clean_eq pc pm now Hinv) in Hc. injection Hc as <- _ _.
  rewrite pm_clean_pure_entries, filter_In. unfold peer_valid. cbn [snd]. rewrite N.ltb_lt. tauto.
Qed.
Print Assumptions C10_clean_exact.

(* the same for every torrent of a reachable udp / http tracker state (forbidden torrents go) *)
Theorem C10_udp_clean_exact : forall cfg s r now mode acl,
  R cfg s r ->
  exists s' out, u_step cfg s (UClean now mode acl) = Ok (s', out)
    /\ forall v6 h k p,
         In (k, p) (pm_entries (tm_get h (ufam s' v6)))
         <-> allows mode acl h = true /\ In (k, p) (pm_entries (tm_get h (ufam s v6))) /\ (now < p_until p)%N.
Proof. exact clean_exact. Qed.
Print Assumptions C10_udp_clean_exact.

Theorem C10_http_clean_exact : forall cfg s r now mode acl,
  HR cfg s r ->
  exists s' out, h_step cfg s (HClean now mode acl) = Ok (s', out)
    /\ forall v6 h k p,
         In (k, p) (pm_entries (tm_get h (hfam s' v6)))
         <-> allows mode acl h = true /\ In (k, p) (pm_entries (tm_get h (hfam s v6))) /\ (now < p_until p)%N.
Proof. exact hclean_exact. Qed.
Print Assumptions C10_http_clean_exact.

(* every re-announce sets a fresh deadline and touches nobody else's *)
Theorem C10_refresh : forall cap shrink pm key st pid until take o1 o2 pm' rep removed,
  pmap_inv cap shrink pm -> st <> Stopped ->
  pm_announce cap pm key st pid until take o1 o2 = Ok (pm', rep, removed) ->
  find_key key (pm_entries pm') = Some (mkPeer pid (is_seeding st) until)
  /\ forall k p, k <> key -> (In (k, p) (pm_entries pm') <-> In (k, p) (pm_entries pm)).
Proof.
  intros cap shrink pm key st pid until take o1 o2 pm' rep removed Hinv Hst Ha.
  destruct (pm_announce_inv pm key st pid until take o1 o2 pm' rep removed Hinv Ha) as (_ & [Hnd' _] & Href & _).
  unfold pm_refines, ref_announce in Href. cbn [fst] in Href.
  replace (is_stopped st) with false in Href by (destruct st; [reflexivity|reflexivity|congruence]).
  split.
  - rewrite find_key_aget. apply in_aget; [exact Hnd'|]. rewrite Href. apply in_elt.
  - intros k p Hne. rewrite Href, in_app_iff. unfold ref_remove. rewrite filter_In. cbn.
    destruct (N.eqb_spec k key); [contradiction|]. split.
    + intros [[Hin _]|[[= E _]|[]]]; [exact Hin|congruence].
    + intros Hin. left. split; [exact Hin|reflexivity].
Qed.
Print Assumptions C10_refresh.

(* non-vacuity: deadline 7 - a pass at 6 keeps the peer, a pass at 7 removes it (heap map) *)
Example C10_boundary :
  let l := [(1, mkPeer 1 true 7); (2, mkPeer 2 false 9); (3, mkPeer 3 false 9)]%N in
  (exists pm c m, pm_clean 2 true false (Large l 1) 6%N = Ok (pm, c, m) /\ length (pm_entries pm) = 3)
  /\ (exists pm c m, pm_clean 2 true false (Large l 1) 7%N = Ok (pm, c, m) /\ keys (pm_entries pm) = [2; 3]%N).
Proof. split; do 3 eexists; split; vm_compute; reflexivity. Qed.

(* ---- staleness of the clock sample (http swarm worker) ----
   the http swarm worker stamps announces with a shared deadline that a timer refreshes every
   [http_peer_valid_until_refresh_secs] seconds (regenerated from swarm/mod.rs; 0 = the period is
   no longer a literal).  A deadline is therefore computed from a clock sample at most one period
   old, and a peer is never removed more than that much before announce time + max_peer_age. *)
From Aquatic Require Import Consts.
Theorem C10_http_sample_refreshed_every_second : (0 < http_peer_valid_until_refresh_secs <= 1)%N.
Proof. vm_compute. split; congruence. Qed.
Print Assumptions C10_http_sample_refreshed_every_second.

Theorem C10_stale_sample_bound : forall refresh t sample age now,
  (sample <= t)%N -> (t <= sample + refresh)%N -> (t + age <= u32_max)%N -> (now + refresh < t + age)%N ->
  vu_valid (valid_until_new sample age) now = true.
Proof.
  intros refresh t sample age now H1 H2 H3 H4. apply C10_never_early; [lia|lia|right; lia].
Qed.
Print Assumptions C10_stale_sample_bound.

(* the udp socket workers refresh their clock (connection-id clock and peer deadline sample) every
   256th poll iteration (mio: at most 256 x poll_timeout_ms = 12.8 s when idle with the default
   50 ms) or on a 5-second pulse (io_uring); regenerated from the sources *)
Theorem C10_udp_clock_refresh_cadence :
  (0 < udp_mio_clock_refresh_polls <= 256)%N /\ (0 < udp_uring_clock_pulse_secs <= 5)%N.
Proof. vm_compute. repeat split; congruence. Qed.
Print Assumptions C10_udp_clock_refresh_cadence.
