(* C06 - UDP request/reply contract: one reply, to the sender, no amplification.
   The handler model (Model/UdpHandler.v) is a function
       state -> source address -> datagram bytes -> state * option reply
   so "at most one datagram per datagram received, addressed to its source" is its type: both
   socket backends return Option<Response> and send it to the canonical source.  The theorems
   hold for every keyed hash [mac], every swarm implementation [do_announce]/[do_scrape], every
   configuration, clock, state, source and EVERY byte string. *)
From Aquatic Require Import Bep15 UdpCodecFacts UdpHandler UdpHandlerFacts.
Local Open Scope N_scope.

Theorem C06_port_zero_ignored : forall mac St da ds cfg now st o bytes,
  handle L mac St da ds cfg now st (SA o 0) bytes = Ok (st, None).
Proof. reflexivity. Qed.
Print Assumptions C06_port_zero_ignored.

(* the only reply obtainable without a valid connection id is the connect reply *)
Theorem C06_reply_needs_connect_or_valid_id : forall mac St da ds cfg now st from bytes st' r,
  handle L mac St da ds cfg now st from bytes = Ok (st', Some r) ->
  (exists tid, parse_request L bytes (hc_max_scrape cfg) = POk (RConnect tid) /\ st' = st
               /\ r = SConnect [VInt tid; VInt (wire_of_id (create mac now (sa_octets (canonical from))))])
  \/ (exists cid, carried_id L cfg bytes = Some cid /\ id_valid mac cfg now (canonical from) cid = true).
Proof.
  intros mac St da ds cfg now st from bytes st' r. unfold handle, carried_id. intros H.
  destruct (sa_port from =? 0); [discriminate|].
  destruct (parse_request L bytes (hc_max_scrape cfg)) as [[tid|vs|cid tid hs]|[cid tid k|]].
  - left. exists tid. injection H as <- <-. auto.
  - right. destruct (id_valid _ _ _ _ _) eqn:Ev; [|discriminate]. eauto.
  - right. destruct (id_valid _ _ _ _ _) eqn:Ev; [|discriminate]. eauto.
  - right. destruct (id_valid _ _ _ _ _) eqn:Ev; [|discriminate]. eauto.
  - discriminate.
Qed.
Print Assumptions C06_reply_needs_connect_or_valid_id.

(* ... which is 16 bytes, never larger than the request that caused it *)
Theorem C06_connect_reply_not_larger : forall bytes max tid c,
  parse_request L bytes max = POk (RConnect tid) ->
  length (write_response L (SConnect [VInt tid; VInt c])) = 16%nat /\ (16 <= length bytes)%nat.
Proof.
  intros bytes max tid c H. split.
  - cbn [write_response L_connect_response bep15_layouts]. rewrite app_length, i32_be_length.
    cbn [bep15_connect_response enc_struct enc_field]. rewrite !app_length, !be_enc_length. reflexivity.
  - pose proof (parse_cases L bytes max) as Hf. rewrite H in Hf. exact (proj2 Hf).
Qed.
Print Assumptions C06_connect_reply_not_larger.

Theorem C06_invalid_id_unanswered : forall mac St da ds cfg now st from bytes cid,
  carried_id L cfg bytes = Some cid -> id_valid mac cfg now (canonical from) cid = false ->
  handle L mac St da ds cfg now st from bytes = Ok (st, None).
Proof.
  intros mac St da ds cfg now st from bytes cid Hc Hv. unfold handle, carried_id in *.
  destruct (sa_port from =? 0); [reflexivity|].
  destruct (parse_request L bytes (hc_max_scrape cfg)) as [[tid|vs|c tid hs]|[c tid k|]]; try discriminate Hc;
    injection Hc as ->; rewrite Hv; reflexivity.
Qed.
Print Assumptions C06_invalid_id_unanswered.

Theorem C06_unparseable_unanswered : forall mac St da ds cfg now st from bytes,
  parse_request L bytes (hc_max_scrape cfg) = PErr Unsendable ->
  handle L mac St da ds cfg now st from bytes = Ok (st, None).
Proof.
  intros mac St da ds cfg now st from bytes H. unfold handle. destruct (sa_port from =? 0); [reflexivity|].
  rewrite H. reflexivity.
Qed.
Print Assumptions C06_unparseable_unanswered.

(* exactly one reply for a well-formed connect ... *)
Theorem C06_connect_always_answered : forall mac St da ds cfg now st from bytes tid,
  sa_port from <> 0 -> parse_request L bytes (hc_max_scrape cfg) = POk (RConnect tid) ->
  exists c, handle L mac St da ds cfg now st from bytes = Ok (st, Some (SConnect [VInt tid; VInt c])).
Proof.
  intros mac St da ds cfg now st from bytes tid Hp H. unfold handle. apply N.eqb_neq in Hp. rewrite Hp, H. eauto.
Qed.
Print Assumptions C06_connect_always_answered.

(* ... and for any parseable request carrying a valid id, as long as the swarm calls return
   (they do on every reachable state: C01 / C12) *)
Theorem C06_valid_id_always_answered : forall mac St da ds cfg now st from bytes cid,
  sa_port from <> 0 -> carried_id L cfg bytes = Some cid -> id_valid mac cfg now (canonical from) cid = true ->
  (forall vs, exists st' r, da st (canonical from) vs = Ok (st', r)) ->
  (forall tid hs, exists r, ds st (canonical from) tid hs = Ok r) ->
  exists st' r, handle L mac St da ds cfg now st from bytes = Ok (st', Some r).
Proof.
  intros mac St da ds cfg now st from bytes cid Hp Hc Hv Ha Hs. unfold handle, carried_id in *.
  apply N.eqb_neq in Hp. rewrite Hp.
  destruct (parse_request L bytes (hc_max_scrape cfg)) as [[tid|vs|c tid hs]|[c tid k|]]; try discriminate Hc;
    injection Hc as ->; rewrite Hv.
  - destruct (allows _ _ _); [|eauto]. destruct (Ha vs) as (s1 & r & E). rewrite E. cbn. eauto.
  - destruct (Hs tid hs) as (r & E). rewrite E. cbn. eauto.
  - eauto.
Qed.
Print Assumptions C06_valid_id_always_answered.

(* transaction id and kind of every reply, for a swarm that echoes the id and answers in kind *)
Theorem C06_reply_echoes_tid_and_kind : forall mac St da ds,
  (forall st src vs st' r, da st src vs = Ok (st', r) ->
     exists fixed peers, r = SAnnounce (negb (is_v4 src)) fixed peers
       /\ int_of (field_at bep15_announce_fixed fixed "transaction_id") = int_of (field_at bep15_announce_request vs "transaction_id")) ->
  (forall st src tid hs r, ds st src tid hs = Ok r -> exists stats, r = SScrape tid stats /\ length stats = length hs) ->
  forall cfg now st from bytes st' r,
  handle L mac St da ds cfg now st from bytes = Ok (st', Some r) ->
  response_tid L r = request_tid bytes /\ reply_kind_ok from (parse_request L bytes (hc_max_scrape cfg)) r.
Proof. exact reply_echoes_tid_and_kind. Qed.
Print Assumptions C06_reply_echoes_tid_and_kind.

(* rejected input leaves the tracker state unchanged (also the last clause of C12) *)
Theorem C06_state_changes_only_by_accepted_announce : forall mac St da ds cfg now st from bytes st' o,
  handle L mac St da ds cfg now st from bytes = Ok (st', o) ->
  st' = st
  \/ (exists vs r, parse_request L bytes (hc_max_scrape cfg) = POk (RAnnounce vs)
                 /\ id_valid mac cfg now (canonical from) (int_of (areq_field L vs "connection_id")) = true
                 /\ allows (hc_acl_mode cfg) (hc_acl cfg) (be_dec (bytes_of (areq_field L vs "info_hash"))) = true
                 /\ da st (canonical from) vs = Ok (st', r) /\ o = Some r).
Proof. exact state_changes_only_by_accepted_announce. Qed.
Print Assumptions C06_state_changes_only_by_accepted_announce.

(* the scrape list handed to the swarm is the first max_scrape_torrents requested hashes, in
   request order: C13_roundtrip_scrape_cut; its size bound: C12_udp_scrape_alloc *)

From Aquatic Require Import Consts.

(* on either backend a datagram causes at most what the handler gives for a prefix of it;
   one that fits the receive buffer is handled exactly *)
Theorem C06_serve_is_handle_of_prefix_or_drop : forall mac St da ds b cfg now st from bytes,
  serve L mac St da ds b cfg now st from bytes = Ok (st, None)
  \/ exists n, serve L mac St da ds b cfg now st from bytes = handle L mac St da ds cfg now st from (firstn n bytes).
Proof.
  intros mac St da ds b cfg now st from bytes. unfold serve, received. destruct b as [size|len v6s].
  - right. exists size. reflexivity.
  - destruct (uring_capacity len v6s <? length bytes)%nat; [left; reflexivity|].
    right. exists (length bytes). rewrite firstn_all. reflexivity.
Qed.
Print Assumptions C06_serve_is_handle_of_prefix_or_drop.

Theorem C06_serve_is_handle_when_fits : forall mac St da ds b cfg now st from bytes,
  fits b bytes -> serve L mac St da ds b cfg now st from bytes = handle L mac St da ds cfg now st from bytes.
Proof.
  intros mac St da ds b cfg now st from bytes. unfold serve, received, fits. destruct b as [size|len v6s]; intros H.
  - rewrite firstn_all2 by exact H. reflexivity.
  - destruct (Nat.ltb_spec (uring_capacity len v6s) (length bytes)); [lia|reflexivity].
Qed.
Print Assumptions C06_serve_is_handle_when_fits.

(* KNOWN FINDING (uring-request-buffer): "exactly one reply for any well-formed request carrying
   a valid connection id" is FALSE on the io_uring backend for requests longer than
   REQUEST_BUF_LEN - 16 - sizeof(sockaddr) = 480 (v4 socket) / 468 (v6 socket) bytes: a
   well-formed scrape naming 24 torrents (496 bytes; max_scrape_torrents defaults to 70) is
   dropped whatever id it carries, while the mio backend answers it. *)
Theorem C06_uring_drops_wellformed_scrape_refuted : forall mac St da ds cfg now st from cid tid hs v6s,
  signed_ok 8 cid -> signed_ok 4 tid -> Forall (fun h => length h = 20%nat) hs -> hs <> [] ->
  (uring_capacity (N.to_nat uring_REQUEST_BUF_LEN) v6s < 16 + 20 * length hs)%nat ->
  let bytes := write_request L (UdpCodec.RScrape cid tid hs) in
  parse_request L bytes (hc_max_scrape cfg) = POk (UdpCodec.RScrape cid tid (firstn (Nat.min (hc_max_scrape cfg) (length hs)) hs))
  /\ serve L mac St da ds (Uring (N.to_nat uring_REQUEST_BUF_LEN) v6s) cfg now st from bytes = Ok (st, None).
Proof.
  intros mac St da ds cfg now st from cid tid hs v6s Hc Ht Hall Hne Hn bytes. split.
  - apply roundtrip_scrape; assumption.
  - apply uring_drops_long_datagrams. unfold bytes. rewrite (scrape_request_length L _ _ _ Hall). exact Hn.
Qed.
Print Assumptions C06_uring_drops_wellformed_scrape_refuted.

(* with the constants of the current source the hypothesis holds from 24 torrents on *)
Example C06_uring_capacity_now :
  uring_capacity (N.to_nat uring_REQUEST_BUF_LEN) false = N.to_nat (uring_REQUEST_BUF_LEN - 32)
  /\ uring_capacity (N.to_nat uring_REQUEST_BUF_LEN) true = N.to_nat (uring_REQUEST_BUF_LEN - 44).
Proof. split; reflexivity. Qed.
