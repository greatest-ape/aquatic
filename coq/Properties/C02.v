(* C02 - peer lists are sound, bounded and never contain the requester (udp and http part;
   the WebTorrent offer-receiver selection is in C02ws.v).  For every swarm size, every limit
   and every outcome [o1 o2] of the two random offsets. *)
From Aquatic Require Import RefTracker Selection PeerMapRefine.

(* the heap-map selection: never fails (no usize underflow, both get_range calls in bounds),
   returns distinct stored keys, at most [take]; everything when the map is small enough,
   otherwise exactly 2 * (take / 2) >= take - 1 *)
Theorem C02_large : forall take l o1 o2,
  NoDup (keys l) ->
  exists r, extract_large take l o1 o2 = Ok r
    /\ NoDup r /\ incl r (keys l) /\ length r <= take
    /\ (length l <= take -> r = keys l)
    /\ (take < length l -> length r = 2 * (take / 2)).
Proof. exact extract_large_spec. Qed.
Print Assumptions C02_large.

Theorem C02_small : forall take l,
  NoDup (keys l) ->
  let r := extract_small take l in
  NoDup r /\ incl r (keys l) /\ length r <= take
  /\ (length l <= take -> r = keys l) /\ (take < length l -> length r = take).
Proof. exact extract_small_spec. Qed.
Print Assumptions C02_small.

(* the reply of a whole announce (either representation, any inline capacity): distinct stored
   members of the same torrent, never the requester's own key, at most [take]; all other members
   when there are at most [take], otherwise at least [take - 1] *)
Theorem C02_announce_reply : forall cap shrink pm key st pid until take o1 o2 pm' rep removed,
  pmap_inv cap shrink pm ->
  pm_announce cap pm key st pid until take o1 o2 = Ok (pm', rep, removed) ->
  let others := ref_remove key (pm_entries pm) in
  NoDup (r_peers rep) /\ incl (r_peers rep) (keys others) /\ ~ In key (r_peers rep)
  /\ length (r_peers rep) <= take
  /\ (length others <= take -> Permutation (r_peers rep) (keys others))
  /\ (take < length others -> take - 1 <= length (r_peers rep)).
Proof.
  intros cap shrink pm key st pid until take o1 o2 pm' rep removed Hinv Ha.
  destruct (pm_announce_inv pm key st pid until take o1 o2 pm' rep removed Hinv Ha) as (_ & _ & _ & _ & Hsel).
  exact Hsel.
Qed.
Print Assumptions C02_announce_reply.

(* the limit: a non-positive request means the configured maximum (udp), an absent or zero
   request likewise (http); otherwise the smaller of the two *)
Theorem C02_limit_udp : forall want cfg,
  ((want <= 0)%Z -> limit_udp want cfg = cfg)
  /\ ((0 < want)%Z -> limit_udp want cfg = Nat.min cfg (Z.to_nat want)).
Proof.
  intros want cfg. unfold limit_udp. destruct (Z.leb_spec want 0); split; intros; try reflexivity; lia.
Qed.
Print Assumptions C02_limit_udp.

Theorem C02_limit_http : forall want cfg,
  limit_http None cfg = cfg /\ limit_http (Some 0) cfg = cfg
  /\ (0 < want -> limit_http (Some want) cfg = Nat.min want cfg).
Proof.
  intros want cfg. split; [reflexivity|]. split; [reflexivity|]. intros H. destruct want; [lia|reflexivity].
Qed.
Print Assumptions C02_limit_http.

(* non-vacuity: a 9-entry heap map, limit 4: both halves contribute, offsets matter *)
Example C02_large_example :
  let l := map (fun k => (N.of_nat k, mkPeer 0 false 9)) (seq 1 9) in
  extract_large 4 l 1 2 = Ok [2; 3; 7; 8]%N /\ extract_large 4 l 0 0 = Ok [1; 2; 5; 6]%N.
Proof. split; vm_compute; reflexivity. Qed.
