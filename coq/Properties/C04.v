(* C04 - UDP shared swarm state is linearizable and deadlock-free.
   Model/UdpConcurrent.v: threads interleave at lock-acquisition granularity (every instruction
   runs under one lock; between instructions none is held).  The reference tracker is the
   sequential per-torrent specification of C01 (RefTracker.v). *)
From Aquatic Require Import UdpConcurrent UdpConcFacts Consts.

(* the phase-2 retain of the cleaning pass keeps a torrent whose Arc is shared (regenerated) *)
Theorem C04_clean_keeps_shared_arc : udp_clean_keeps_shared_arc = true.
Proof. reflexivity. Qed.
Print Assumptions C04_clean_keeps_shared_arc.

(* announce looks a torrent's cell up and, on a miss, creates it under ONE lock (upgradable read,
   upgraded; entry().or_default() does not overwrite): the model's IAnn1 is one instruction *)
Theorem C04_get_or_create_is_atomic : udp_announce_get_or_create_atomic = true.
Proof. reflexivity. Qed.
Print Assumptions C04_get_or_create_is_atomic.

(* EVERY program of announces, scrapes and cleaning passes, ANY number of threads, EVERY
   schedule: the run never fails, and its events are a run of the sequential reference tracker
   in which every instruction is a stutter or the single atomic effect of its operation
   ([lin]: IAnn2 = the announce with the reference's counts and a valid peer selection, IScr =
   the reference's counts, ICl2 = the reference's expiry) - a forward simulation with the
   linearization points inside the operations, i.e. linearizability; the final shared state
   refines the final reference state *)
Theorem C04_linearizable : forall cap ops sched,
  exists s evs, run_micro cap udp_clean_keeps_shared_arc (cinit ops) sched = Ok (s, evs) /\ Inv s
    /\ exists r, lin_run (fun _ => []) evs r /\ Sim cap s r.
Proof. intros cap ops sched. rewrite C04_clean_keeps_shared_arc. apply linearizable. Qed.
Print Assumptions C04_linearizable.

(* the key invariant: a thread's Arc clone is always the cell the shard maps its torrent to, so
   an in-flight announce can never write into a cell the cleaning pass has unlinked *)
Theorem C04_held_cell_is_mapped : forall cap ops sched s evs,
  run_micro cap true (cinit ops) sched = Ok (s, evs) ->
  forall t h c, In t (cs_threads s) -> t_held t = Some (h, c) -> lookup h (cs_map s) = Some c.
Proof.
  intros cap ops sched s evs H.
  destruct (linearizable cap ops sched) as (s' & evs' & H' & (I1 & _) & _). rewrite H in H'. injection H' as <- _. exact I1.
Qed.
Print Assumptions C04_held_cell_is_mapped.

(* one step of any thread, from any state satisfying the invariants *)
Theorem C04_step : forall cap s r me res,
  Inv s -> AllShaped s -> Sim cap s r -> micro cap true s me = Some res ->
  exists s' ev, res = Ok (s', ev) /\ Inv s' /\ AllShaped s'
    /\ exists t i, nth_error (cs_threads s) me = Some t /\ hd_error (t_code t) = Some i
         /\ exists r', lin r (t_held t) i ev r' /\ Sim cap s' r'.
Proof. exact micro_simulates. Qed.
Print Assumptions C04_step.

(* no thread ever waits for another at this granularity, and every step consumes an
   instruction: no deadlock, no infinite schedule *)
Theorem C04_progress : forall cap s r me t i code,
  Inv s -> AllShaped s -> Sim cap s r ->
  nth_error (cs_threads s) me = Some t -> t_code t = i :: code ->
  exists s' ev, micro cap true s me = Some (Ok (s', ev)) /\ (remaining s' + 1 = remaining s)%nat.
Proof. exact progress. Qed.
Print Assumptions C04_progress.

(* WITHOUT the Arc::get_mut guard the property is false: an announce that was answered is lost.
   Thread 0 announces (clone of a fresh cell), thread 1's cleaning pass unlinks the still empty
   cell, thread 0 then writes its peer into the unlinked cell; the final scrape shows nothing. *)
Definition w_h : N := 7.
Definition w_ops : list cop :=
  [OAnn w_h (mkAargs 100 Leeching 1 1000 30 0 0); OCl 50 [w_h]; OScr [w_h]].
Definition w_sched : list nat := [0; 1; 1; 1; 1; 1; 1; 1; 1; 0; 0; 2; 2; 2]%nat.

Theorem C04_refuted_without_guard :
  exists s evs, run_micro 2 false (cinit w_ops) w_sched = Ok (s, evs)
    /\ In (0%nat, EAnnounce 0 0 []) evs /\ In (2%nat, EScrape 0 0) evs /\ abs_pm s w_h = Small [].
Proof. vm_compute. do 2 eexists. split; [reflexivity|]. repeat split; auto 20. Qed.
Print Assumptions C04_refuted_without_guard.

(* the same schedule with the guard: the announced peer is there at the end *)
Example C04_same_schedule_with_guard :
  exists s evs, run_micro 2 true (cinit w_ops) w_sched = Ok (s, evs) /\ In (2%nat, EScrape 0 1) evs.
Proof. vm_compute. do 2 eexists. split; [reflexivity|]. cbn. tauto. Qed.
