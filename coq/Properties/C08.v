(* C08 - WebTorrent swarm bookkeeping and per-connection ownership of peers (one swarm worker's
   storage; the socket worker's bookkeeping and the channels between workers are C17). *)
From Aquatic Require Import WsSwarm WsFacts.

(* every operation on a reachable state succeeds - in particular num_seeders never underflows -
   and num_seeders stays equal to the number of stored seeders, peer ids stay unique *)
Theorem C08_invariant : forall strict cfg s op,
  wstate_ok s -> exists s' outs, ws_step_gen strict cfg s op = Ok (s', outs) /\ wstate_ok s'.
Proof. exact ws_step_ok. Qed.
Print Assumptions C08_invariant.

Theorem C08_initial_state_ok : wstate_ok winit.
Proof. exact winit_ok. Qed.
Print Assumptions C08_initial_state_ok.

(* an announce installs exactly the announced status and a fresh deadline for its own peer id,
   keeps the entry's creator, removes the entry on 'stopped', and touches nobody else *)
Theorem C08_upsert : forall t rq until st,
  wt_ok t -> exists t', ws_upsert t rq until st = Ok t' /\ wt_ok t'
    /\ match st with
       | WStopped => aget N.eqb (q_pid rq) (wt_peers t') = None
       | _ => exists p, aget N.eqb (q_pid rq) (wt_peers t') = Some p
                        /\ w_seeder p = (match st with WSeeding => true | _ => false end) /\ w_until p = until
                        /\ (match aget N.eqb (q_pid rq) (wt_peers t) with
                            | Some old => w_consumer p = w_consumer old /\ w_conn p = w_conn old /\ w_expect p = w_expect old
                            | None => w_consumer p = q_consumer rq /\ w_conn p = q_conn rq /\ w_expect p = []
                            end)
       end
    /\ (forall k, k <> q_pid rq -> aget N.eqb k (wt_peers t') = aget N.eqb k (wt_peers t)).
Proof.
  intros t rq until st Hok. destruct (ws_upsert_spec t rq until st Hok) as (t' & Hu & Hok' & Hget).
  exists t'. split; [exact Hu|]. split; [exact Hok'|]. split.
  - rewrite Hget, N.eqb_refl. destruct st; cbn [upsert_entry].
    + eexists. split; [reflexivity|apply upsert_record_spec].
    + eexists. split; [reflexivity|apply upsert_record_spec].
    + reflexivity.
  - intros k Hk. rewrite Hget. destruct (N.eqb_spec k (q_pid rq)); [contradiction|reflexivity].
Qed.
Print Assumptions C08_upsert.

(* 'left = 0' means seeder, anything else (absent included) leecher, 'stopped' wins *)
Theorem C08_status : forall stopped bleft,
  wstatus_of stopped bleft = if stopped then WStopped else match bleft with Some 0%N => WSeeding | _ => WLeeching end.
Proof. reflexivity. Qed.
Print Assumptions C08_status.

(* an announce with a stored peer id from a connection with a different connection id is ignored:
   no reply, no effect - under the code's test and under the intended one *)
Theorem C08_foreign_announce_inert : forall cfg s rq now o1 o2 t p,
  aget N.eqb (q_hash rq) (wfam s (q_v6 rq)) = Some t ->
  aget N.eqb (q_pid rq) (wt_peers t) = Some p -> w_conn p <> q_conn rq ->
  forall strict, ws_announce_gen strict cfg s rq now o1 o2 = Ok (s, []).
Proof.
  intros cfg s rq now o1 o2 t p Ht Hp Hne strict. unfold ws_announce_gen, wm_get. rewrite Ht, Hp.
  destruct (N.eqb_spec (q_conn rq) (w_conn p)) as [E|_]; [congruence|]. cbn [negb andb].
  rewrite (wset_same _ _ _ _ Ht). reflexivity.
Qed.
Print Assumptions C08_foreign_announce_inert.

(* the code's ownership test is the intended one whenever connection ids are not shared between
   socket workers ... *)
Theorem C08_ownership_test_exact_when_ids_unique : forall rq p,
  (w_conn p = q_conn rq -> w_consumer p = q_consumer rq) -> lenient_foreign rq p = strict_foreign rq p.
Proof.
  intros rq p H. unfold lenient_foreign, strict_foreign.
  destruct (N.eqb_spec (q_conn rq) (w_conn p)) as [E|E]; cbn [andb negb]; [|reflexivity].
  rewrite (H (eq_sym E)), N.eqb_refl. reflexivity.
Qed.
Print Assumptions C08_ownership_test_exact_when_ids_unique.

(* ... and it is NOT when they are (recorded finding "conn-id-collision"): a connection of
   socket worker 1 whose slot key equals that of the owner on socket worker 0 re-labels the
   owner's entry as a seeder and is answered.  4294967297 = 2^32 + 1 is a slot-map key as
   `as_ffi` gives it: version 1 in the high word, index 1 in the low *)
Lemma C08_ownership_refuted_conn_id_collision :
  let cfg := mkWcfg 10 255 100 100 in
  let a consumer bleft := WOpAnnounce (mkWreq consumer 4294967297 false 7 99 false (Some bleft) None None) 0%N 0 0 in
  exists s1 o1 s2 o2,
    ws_step cfg winit (a 0%N 5%N) = Ok (s1, o1) /\ ws_step cfg s1 (a 1%N 0%N) = Ok (s2, o2)
    /\ o2 = [WAnnounce 1 4294967297 7 1 0]
    /\ ws_step_gen true cfg s1 (a 1%N 0%N) = Ok (s1, []).
Proof.
  cbv zeta. do 4 eexists. repeat (split; [vm_compute; reflexivity|]). reflexivity.
Qed.

(* closing: the notification for (torrent, peer id) removes that entry and no other *)
Theorem C08_close_removes_that_peer : forall s v6 hash pid s' t,
  wstate_ok s -> ws_closed s v6 hash pid = Ok s' -> aget N.eqb hash (wfam s v6) = Some t ->
  exists t', aget N.eqb hash (wfam s' v6) = Some t'
    /\ aget N.eqb pid (wt_peers t') = None
    /\ forall k, k <> pid -> aget N.eqb k (wt_peers t') = aget N.eqb k (wt_peers t).
Proof.
  intros s v6 hash pid s' t Hs Hc Ht. pose proof (proj2 (wfam_ok s v6 Hs) _ _ Ht) as Hok.
  exists (wt_remove pid t). split; [|split].
  - rewrite (ws_closed_get _ _ _ _ _ Hs Hc), Bool.eqb_reflx, N.eqb_refl, Ht. reflexivity.
  - rewrite aget_wt_remove, N.eqb_refl by exact Hok. reflexivity.
  - intros k Hk. rewrite aget_wt_remove by exact Hok. destruct (N.eqb_spec k pid); [contradiction|reflexivity].
Qed.
Print Assumptions C08_close_removes_that_peer.

(* the removal is by peer id with no ownership test (recorded finding "close-without-owner-check",
   reachable because the socket worker records (torrent, peer id) even for announces the swarm
   worker ignores): connection B's close removes connection A's entry *)
Lemma C08_close_refuted_without_owner_check :
  let cfg := mkWcfg 10 255 100 100 in
  let ann consumer conn := WOpAnnounce (mkWreq consumer conn false 7 99 false (Some 5%N) None None) 0%N 0 0 in
  exists s1 o1 s2 o2 s3,
    ws_step cfg winit (ann 0%N 4294967297%N) = Ok (s1, o1)         (* A announces: stored *)
    /\ ws_step cfg s1 (ann 0%N 4294967298%N) = Ok (s2, o2) /\ o2 = [] /\ s2 = s1   (* B uses A's peer id: ignored *)
    /\ ws_closed s2 false 7 99 = Ok s3                              (* B closes: its socket worker reports (7, 99) *)
    /\ wt_peers (wm_get 7 (w4 s3)) = [].                            (* A's entry is gone *)
Proof.
  cbv zeta. do 5 eexists. repeat (split; [vm_compute; reflexivity|]). reflexivity.
Qed.
