(* C02, WebTorrent part: the peers chosen to receive offers. *)
From Aquatic Require Import WsSwarm WsFacts.

(* distinct stored members of the same torrent, never the sender, exactly
   min(limit, other members) of them - for every swarm size, limit, sender position and every
   outcome of the two random offsets; the selection never fails (no usize underflow, both
   get_range calls in bounds) *)
Theorem C02_ws_receivers : forall peers max sender o1 o2,
  NoDup (wkeys peers) -> In sender (wkeys peers) ->
  exists r, ws_extract peers max sender o1 o2 = Ok r
    /\ NoDup (wkeys r) /\ incl r peers /\ ~ In sender (wkeys r)
    /\ length r = Nat.min max (length peers - 1).
Proof. exact ws_extract_spec. Qed.
Print Assumptions C02_ws_receivers.
