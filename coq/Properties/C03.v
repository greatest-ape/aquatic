(* C03 - stored peer addresses are the real source addresses.
   What the kernel reports as the source of a datagram / connection, and std's
   `str::parse::<IpAddr>` (a Section variable here), are outside the model. *)
From Aquatic Require Import Addr AddrFacts.
Local Open Scope N_scope.

(* an IPv4-mapped IPv6 source is the embedded IPv4 address, in all three trackers *)
Theorem C03_mapped_is_v4 : forall a b c d p, canonical (SA (mapped a b c d) p) = SA [a; b; c; d] p.
Proof. reflexivity. Qed.
Print Assumptions C03_mapped_is_v4.

Theorem C03_canonical_other_unchanged : forall o p, mapped_v4 o = None -> canonical (SA o p) = SA o p.
Proof. intros o p H. unfold canonical. rewrite H. reflexivity. Qed.
Print Assumptions C03_canonical_other_unchanged.

Theorem C03_mapped_only_that_pattern : forall o v,
  mapped_v4 o = Some v -> exists a b c d, o = mapped a b c d /\ v = [a; b; c; d].
Proof. exact mapped_v4_spec. Qed.
Print Assumptions C03_mapped_only_that_pattern.

Theorem C03_canonical_idempotent : forall a, canonical (canonical a) = canonical a.
Proof.
  intros [o p]. unfold canonical. destruct (mapped_v4 o) as [v|] eqn:E.
  - apply mapped_v4_spec in E. destruct E as (a & b & c & d & -> & ->). reflexivity.
  - rewrite E. reflexivity.
Qed.
Print Assumptions C03_canonical_idempotent.

Theorem C03_ws_family_agrees : forall o p,
  length o = 4%nat \/ length o = 16%nat -> ws_is_v6 o = negb (is_v4 (canonical (SA o p))).
Proof.
  intros o p _. unfold ws_is_v6, canonical, is_v4. destruct (mapped_v4 o) as [v|] eqn:E.
  - apply mapped_v4_spec in E. destruct E as (a & b & c & d & -> & ->). reflexivity.
  - reflexivity.
Qed.
Print Assumptions C03_ws_family_agrees.

(* the stored key is (canonical source ip, REQUEST port); the ip field inside the request never
   influences it; a host seen through a dual-stack socket and through plain IPv4 is one peer *)
Theorem C03_key_is_source : forall src port x,
  peer_key src port x = (match canonical src with SA o _ => o end, port).
Proof. intros src port x. unfold peer_key. destruct (canonical src). reflexivity. Qed.
Print Assumptions C03_key_is_source.

Theorem C03_request_ip_ignored : forall src port x y, peer_key src port x = peer_key src port y.
Proof. reflexivity. Qed.
Print Assumptions C03_request_ip_ignored.

Theorem C03_dual_stack_same_peer : forall a b c d p req_port x y,
  peer_key (SA (mapped a b c d) p) req_port x = peer_key (SA [a; b; c; d] p) req_port y.
Proof. reflexivity. Qed.
Print Assumptions C03_dual_stack_same_peer.

(* HTTP: directly connected -> the TCP peer; behind a reverse proxy -> the last address of the
   LAST occurrence of the configured header (exact name), with the TCP peer's port; for every
   IP-text parser *)
Theorem C03_http_direct : forall parse_ip name remote hs,
  http_peer_addr parse_ip false name remote hs = Some (canonical remote).
Proof. reflexivity. Qed.
Print Assumptions C03_http_direct.

Theorem C03_http_last_occurrence : forall parse_ip name hs1 v hs2,
  Forall (fun h => bytes_eqb (fst h) name = false) hs2 ->
  forwarded parse_ip name (hs1 ++ (name, v) :: hs2) = Some (parse_ip (trim' (last_piece v))).
Proof.
  intros parse_ip name hs1 v hs2 H. unfold forwarded. rewrite rev_app_distr. cbn [rev]. rewrite <- app_assoc.
  apply forwarded_rev_first, Forall_rev, H.
Qed.
Print Assumptions C03_http_last_occurrence.

Theorem C03_http_last_of_comma_list : forall pre tail,
  Forall (fun b => b <> 44) tail -> last_piece (pre ++ 44 :: tail) = tail.
Proof.
  intros pre tail H. unfold last_piece at 1. rewrite last_piece_aux_comma. apply last_piece_no_comma, H.
Qed.
Print Assumptions C03_http_last_of_comma_list.

Theorem C03_http_proxied : forall parse_ip name o p hs,
  http_peer_addr parse_ip true name (SA o p) hs
  = match forwarded parse_ip name hs with
    | Some (Some ip) => Some (canonical (SA ip p))
    | _ => None
    end.
Proof. reflexivity. Qed.
Print Assumptions C03_http_proxied.

(* non-vacuity: two occurrences, the later one with a comma list *)
Example C03_header_example :
  let parse := fun t => if bytes_eqb t [57; 46; 57] then Some [9; 9; 9; 9] else None in   (* "9.9" stands for an address text *)
  forwarded parse [88] [([88], [49]); ([65], [50]); ([88], [49; 44; 32; 57; 46; 57; 32])] = Some (Some [9; 9; 9; 9]).
Proof. vm_compute. reflexivity. Qed.
