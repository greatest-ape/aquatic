(* C20 - UDP operator reports are faithful; the scrape export is replaced atomically. *)
From Aquatic Require Import RefSwarm Export PeerMapFacts SwarmCommon StatsFacts.

(* ---- totals reported by a cleaning pass (per address family) ----
   torrents = number of stored torrents, each permitted and non-empty;
   peers    = number of unexpired peers counted before forbidden torrents are dropped, which IS
              the stored number whenever no torrent that still has peers is forbidden (the other
              case is the recorded finding "totals-forbidden-torrent", refuted below) *)
Theorem C20_totals : forall cfg v6 now mode acl tm rf,
  fam_rel (c_cap cfg) true tm rf ->
  exists tm2 t p msgs lines,
    u_clean_fam cfg v6 now mode acl tm = Ok (tm2, (t, p), msgs, lines)
    /\ t = length tm2 /\ NoDup (map fst tm2)
    /\ Forall (fun e => allows mode acl (fst e) = true /\ pm_is_empty (snd e) = false) tm2
    /\ p = total_peers (map (clean_entry (c_cap cfg) true now) tm)
    /\ ((forall e, In e (map (clean_entry (c_cap cfg) true now) tm) -> pm_is_empty (snd e) = false -> allows mode acl (fst e) = true)
        -> p = total_peers tm2)
    /\ lines = flat_map (line_of v6) (map (clean_entry (c_cap cfg) true now) tm)
    /\ msgs = flat_map (fun e => removed_msgs (c_peer_clients cfg) now (pm_entries (snd e))) tm.
Proof.
  intros cfg v6 now mode acl tm rf Hrel.
  unfold u_clean_fam. rewrite (clean_phase1_eq cfg v6 now tm (fam_rel_forall _ _ Hrel)). cbn [obind].
  do 5 eexists. split; [reflexivity|]. split; [reflexivity|].
  split; [exact (proj1 (fam_clean_refines now mode acl tm rf Hrel))|].
  split; [exact (clean_fam_nonempty now mode acl tm)|].
  split; [reflexivity|]. split; [|split; reflexivity].
  intros Hallowed. symmetry. apply total_peers_filter. intros e Hin Hf.
  destruct (pm_is_empty (snd e)) eqn:Ee; [apply peers_of_empty, Ee|].
  rewrite (Hallowed e Hin Ee) in Hf. discriminate.
Qed.
Print Assumptions C20_totals.

(* the export lists exactly the torrents that have a stored peer after expiry, each once, with
   their true seeder and leecher counts *)
Theorem C20_export_lines : forall v6 tm1,
  tm_wf tm1 ->
  let lines := flat_map (line_of v6) tm1 in
  (forall f h s l, In (f, h, s, l) lines <->
      f = v6 /\ exists pm, In (h, pm) tm1 /\ pm_is_empty pm = false
               /\ s = count_seeders (pm_entries pm) /\ l = length (pm_entries pm) - count_seeders (pm_entries pm))
  /\ NoDup (map (fun x => snd (fst (fst x))) lines).
Proof.
  intros v6 tm1 Hwf lines. split.
  - intros f h s l. unfold lines. rewrite in_flat_map. split.
    + intros [[h' pm] [Hin Hl]]. rewrite line_of_empty in Hl. cbn [fst snd] in Hl.
      destruct (pm_is_empty pm) eqn:E; [contradiction|]. destruct Hl as [[= <- <- <- <-]|[]].
      split; [reflexivity|]. exists pm. auto.
    + intros [-> [pm [Hin [Hne [-> ->]]]]]. exists (h, pm). split; [exact Hin|].
      rewrite line_of_empty. cbn [fst snd]. rewrite Hne. left. reflexivity.
  - unfold lines. rewrite lines_hashes. apply NoDup_map_filter, Hwf.
Qed.
Print Assumptions C20_export_lines.

(* ---- per-client tallies ----
   the statistics worker's count for an id after a message stream is the fold of +1/-1 *)
Theorem C20_tally_fold : forall msgs t pid,
  tally_wf t ->
  tally_count (fold_left tally_step msgs t) pid = fold_left (msg_delta pid) msgs (tally_count t pid).
Proof.
  induction msgs as [|m r IH]; intros t pid Hwf; cbn [fold_left]; [reflexivity|].
  rewrite IH by (apply tally_step_wf, Hwf). f_equal.
  destruct m as [p|p]; cbn [tally_step msg_delta].
  - apply tally_count_add.
  - apply tally_count_remove, Hwf.
Qed.
Print Assumptions C20_tally_fold.

(* an announce changes the number of stored entries carrying each id exactly as its messages say,
   provided the entry it replaces or removes carries the announced id *)
Theorem C20_tally_announce : forall cap shrink pm key st pid until take o1 o2 pm' rep removed q,
  pmap_inv cap shrink pm ->
  pm_announce cap pm key st pid until take o1 o2 = Ok (pm', rep, removed) ->
  (forall p, removed = Some p -> p_id p = pid) ->
  pid_count q (pm_entries pm')
  = fold_left (msg_delta q) (announce_msgs true st pid removed) (pid_count q (pm_entries pm)).
Proof.
  intros cap shrink pm key st pid until take o1 o2 pm' rep removed q.
  exact (announce_tally_law cap shrink pm key st pid until take o1 o2 pm' rep removed q 0).
Qed.
Print Assumptions C20_tally_announce.

(* expiry: one PeerRemoved per expired entry, with that entry's id *)
Theorem C20_tally_clean : forall cap shrink pm now pm' cnt msgs q,
  pmap_inv cap shrink pm ->
  pm_clean cap shrink true pm now = Ok (pm', cnt, msgs) ->
  pid_count q (pm_entries pm') = fold_left (msg_delta q) msgs (pid_count q (pm_entries pm)).
Proof. exact clean_tally_law. Qed.
Print Assumptions C20_tally_clean.

(* ---- recorded findings: the full statements are FALSE of the faithful model ---- *)
(* a stored key re-announces with a new peer id, then stops: the old id is tallied forever *)
Lemma C20_tally_refuted_peer_id_change :
  exists ops s outs,
    u_run (mkUcfg 2 30 true) uinit ops = Ok (s, outs)
    /\ pm_entries (tm_get 7%N (u4 s)) = []
    /\ tally_count (tally_run (flat_map (fun o => match o with OAnnounce _ _ _ m => m | OClean _ _ _ _ m _ => m | _ => [] end) outs)) 170%N = 1.
Proof.
  exists [UAnnounce false 7%N 1%N 2%N 1%Z 170%N 100%N 0%Z 0 0;
          UAnnounce false 7%N 1%N 0%N 1%Z 187%N 100%N 0%Z 0 0;
          UAnnounce false 7%N 1%N 3%N 1%Z 187%N 100%N 0%Z 0 0].
  do 2 eexists. split; [vm_compute; reflexivity|]. split; vm_compute; reflexivity.
Qed.

(* a torrent with an unexpired peer is dropped by the access list: it is still counted *)
Lemma C20_peers_refuted_forbidden_torrent :
  exists s s' t4 p4 t6 p6 m l,
    u_run (mkUcfg 2 30 true) uinit [UAnnounce false 7%N 1%N 2%N 1%Z 170%N 100%N 0%Z 0 0] = Ok (s, [OAnnounce 0 0 [] [PeerAdded 170%N]])
    /\ u_step (mkUcfg 2 30 true) s (UClean 5%N AclDeny [7%N]) = Ok (s', OClean t4 p4 t6 p6 m l)
    /\ u4 s' = [] /\ p4 = 1 /\ t4 = 0.
Proof. do 8 eexists. split; [vm_compute; reflexivity|]. split; [vm_compute; reflexivity|]. repeat split. Qed.

(* ---- atomic replacement of the export file ----
   after a crash following ANY number k of the steps create / write each line / flush / close /
   rename, with ANY write-through behaviour of the buffered writer, the configured path holds
   either the previous complete file or the new complete one *)
Theorem C20_atomic : forall spills old lines k,
  crash_view spills old lines k = old \/ crash_view spills old lines k = Some lines.
Proof. intros spills old. exact (export_atomic spills old None). Qed.
Print Assumptions C20_atomic.

Theorem C20_flush_failure_keeps_old : forall spills old lines,
  f_path (fs_run spills 0 (mkFs old None []) (FCreateTmp :: map FWriteLine lines)) = old.
Proof.
  intros spills old lines. rewrite fs_run_no_rename; [reflexivity|].
  intros [H|H]; [discriminate|exact (writes_no_rename _ H)].
Qed.
Print Assumptions C20_flush_failure_keeps_old.

(* non-vacuity of the atomicity statement: a crash between flush and rename *)
Example C20_atomic_example :
  crash_view (fun _ => 1) (Some [[1%N]]) [[2%N]; [3%N]] 4 = Some [[1%N]]
  /\ crash_view (fun _ => 1) (Some [[1%N]]) [[2%N]; [3%N]] 6 = Some [[2%N]; [3%N]].
Proof. split; vm_compute; reflexivity. Qed.

(* ---- a temporary file left behind by a killed export ----
   the model's first step truncates the temporary file; that is what the source does
   (File::create), regenerated as a fact: *)
From Aquatic Require Import Consts.
Theorem C20_tmp_file_is_created_truncating : udp_export_tmp_created_truncating = true.
Proof. reflexivity. Qed.
Print Assumptions C20_tmp_file_is_created_truncating.

(* hence whatever an earlier, killed export left in the temporary file - any lines, any length -
   the atomicity statement is unchanged: old complete file or new complete file *)
Theorem C20_atomic_with_stale_tmp : forall spills old stale lines k,
  let view := f_path (fs_run spills 0 (mkFs old stale []) (firstn k (export_steps lines))) in
  view = old \/ view = Some lines.
Proof. exact export_atomic. Qed.
Print Assumptions C20_atomic_with_stale_tmp.

(* ---- the tally over a WHOLE history of one torrent ----
   any sequence of announces and cleaning passes (any capacity, any selection offsets): no step
   panics; and when every stored entry an announce replaced or removed carried the announced id
   (`stable = true`), the statistics worker's tally of every id, fed with every message the
   history emitted, equals the number of stored entries carrying that id. *)
Theorem C20_history_never_panics : forall cap shrink ops,
  exists pm' msgs stable, pm_hist cap shrink (Small []) ops = Ok (pm', msgs, stable) /\ pmap_inv cap shrink pm'.
Proof.
  intros cap shrink ops.
  destruct (pm_hist_spec cap shrink ops (Small []) small_nil_inv) as (pm' & msgs & stable & H & Hi & _).
  exists pm', msgs, stable. split; assumption.
Qed.
Print Assumptions C20_history_never_panics.

Theorem C20_tally_history : forall cap shrink ops pm' msgs q,
  pm_hist cap shrink (Small []) ops = Ok (pm', msgs, true) ->
  tally_count (tally_run msgs) q = pid_count q (pm_entries pm').
Proof.
  intros cap shrink ops pm' msgs q Hh.
  destruct (pm_hist_spec cap shrink ops (Small []) small_nil_inv) as (pm2 & msgs2 & st & E & _ & Hlaw).
  rewrite Hh in E. injection E as <- <- <-.
  unfold tally_run. rewrite C20_tally_fold by (split; constructor). symmetry. apply (Hlaw eq_refl q).
Qed.
Print Assumptions C20_tally_history.

(* non-vacuity: two ids join, one is cleaned away, one re-announces and the inline map is used;
   the history is id-stable and the tallies are 0 and 1 *)
Example C20_tally_history_example :
  exists pm' msgs,
    pm_hist 2 true (Small []) [PAnn 1%N Leeching 170%N 100%N 5 0 0; PAnn 2%N Seeding 187%N 50%N 5 0 0;
                               PClean 60%N; PAnn 1%N Seeding 170%N 200%N 5 0 0] = Ok (pm', msgs, true)
    /\ tally_count (tally_run msgs) 170%N = 1 /\ tally_count (tally_run msgs) 187%N = 0
    /\ length (pm_entries pm') = 1.
Proof. do 2 eexists. split; [vm_compute; reflexivity|]. repeat split; vm_compute; reflexivity. Qed.

(* and the hypothesis `stable = true` cannot be dropped (the recorded finding, on one torrent) *)
Lemma C20_tally_history_refuted_without_stable :
  exists ops pm' msgs,
    pm_hist 2 true (Small []) ops = Ok (pm', msgs, false)
    /\ tally_count (tally_run msgs) 170%N <> pid_count 170%N (pm_entries pm').
Proof.
  exists [PAnn 1%N Leeching 170%N 100%N 5 0 0; PAnn 1%N Leeching 187%N 100%N 5 0 0; PAnn 1%N Stopped 187%N 100%N 5 0 0].
  do 2 eexists. split; [vm_compute; reflexivity|]. vm_compute. discriminate.
Qed.

(* ---- the tally summed over ALL torrents of a family ----
   one announce to any torrent moves the family-wide number of stored entries carrying each id
   exactly as the messages it sends say (id-stable case; the other case is the recorded finding) *)
Theorem C20_tally_family_announce : forall cap shrink tm hash key st pid until take o1 o2 pm' rep removed q,
  pmap_inv cap shrink (tm_get hash tm) ->
  pm_announce cap (tm_get hash tm) key st pid until take o1 o2 = Ok (pm', rep, removed) ->
  (forall p, removed = Some p -> p_id p = pid) ->
  tm_pid_count q (tm_set hash pm' tm)
  = fold_left (msg_delta q) (announce_msgs true st pid removed) (tm_pid_count q tm).
Proof.
  intros cap shrink tm hash key st pid until take o1 o2 pm' rep removed q Hinv Ha Hsame.
  destruct (tm_pid_count_split q hash tm) as (n & -> & ->).
  exact (announce_tally_law cap shrink _ key st pid until take o1 o2 pm' rep removed q n Hinv Ha Hsame).
Qed.
Print Assumptions C20_tally_family_announce.
