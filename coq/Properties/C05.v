(* C05 - UDP connection ids are bound to the source IP and to a time window.
   [mac] - the keyed BLAKE3 hash truncated to 32 bits - is universally quantified: the
   statements hold for every function.  That another run has another key, that the key is
   secret and that a 32-bit tag is guessed with chance 2^-32 are cryptographic assumptions about
   BLAKE3 and getrandom, not theorems. *)
From Aquatic Require Import Validator ValidatorFacts.
Local Open Scope N_scope.

(* accepted from the same address exactly while fewer than max_connection_age seconds have
   passed (and the issue time is not more than 60 s in the tracker's future) *)
Theorem C05_window : forall mac t0 now age ip,
  t0 < two32 -> now < two32 -> age < two32 ->
  (valid mac now age ip (create mac t0 ip) = true <-> (now < t0 + age /\ t0 <= now + 60)).
Proof. exact window. Qed.
Print Assumptions C05_window.

Corollary C05_window_monotone_clock : forall mac t0 now age ip,
  t0 < two32 -> now < two32 -> age < two32 -> t0 <= now ->
  (valid mac now age ip (create mac t0 ip) = true <-> now - t0 < age).
Proof.
  intros mac t0 now age ip H0 Hn Ha Hle. rewrite (window mac t0 now age ip H0 Hn Ha). lia.
Qed.
Print Assumptions C05_window_monotone_clock.

(* max_connection_age = 2^32-1 and clocks near 2^32-1 behave arithmetically: the u64 sums
   cannot wrap *)
Theorem C05_no_u64_wrap : forall e now age,
  e < two32 -> now < two32 -> age < two32 ->
  (e + age) mod two64 = e + age /\ (now + 60) mod two64 = now + 60.
Proof. intros. split; apply u32_add_no_wrap; assumption || reflexivity. Qed.
Print Assumptions C05_no_u64_wrap.

(* the only 8-byte strings accepted for an address are the ids create issues for THAT address
   at an in-window time: ids issued for another address, altered ids, forged ids and ids from a
   previous run (another mac) are rejected unless their tag equals the keyed hash *)
Theorem C05_accept_characterised : forall mac now age ip id,
  length id = 8%nat -> Forall (fun b => b < 256) id -> now < two32 -> age < two32 ->
  (valid mac now age ip id = true <->
     id = create mac (u32_of (firstn 4 id)) ip
     /\ now < u32_of (firstn 4 id) + age /\ u32_of (firstn 4 id) <= now + 60).
Proof.
  intros mac now age ip id Hl Hb Hn Ha.
  assert (Hl4 : length (firstn 4 id) = 4%nat) by (rewrite firstn_length, Hl; reflexivity).
  rewrite <- (firstn_skipn 4 id) in Hb. apply Forall_app in Hb. destruct Hb as [Hb4 _].
  pose proof (u32_of_lt _ Hl4 Hb4) as Hlt.
  rewrite valid_iff, create_iff, !u32_add_no_wrap by (assumption || reflexivity).
  reflexivity.
Qed.
Print Assumptions C05_accept_characterised.

(* accepted from another address only on a 32-bit collision of the keyed hash *)
Theorem C05_other_ip_needs_collision : forall mac t0 now age ip ip',
  valid mac now age ip' (create mac t0 ip) = true ->
  mac (le32 t0 ++ ip') mod two32 = mac (le32 t0 ++ ip) mod two32.
Proof.
  intros mac t0 now age ip ip' H. apply valid_iff in H. destruct H as [H _].
  rewrite create_time, create_tag in H. unfold tag in H.
  symmetry. apply le32_inj; [apply N.mod_lt; discriminate|apply N.mod_lt; discriminate|exact H].
Qed.
Print Assumptions C05_other_ip_needs_collision.

(* the hash input determines time and address: the 4 time bytes are a fixed-length prefix,
   and 4-octet and 16-octet addresses can never be confused *)
Theorem C05_mac_input_injective : forall t t' ip ip',
  t < two32 -> t' < two32 -> le32 t ++ ip = le32 t' ++ ip' -> t = t' /\ ip = ip'.
Proof.
  intros t t' ip ip' Ht Ht' H. split.
  - apply le32_inj; [assumption|assumption|exact (f_equal (firstn 4) H)].
  - exact (f_equal (skipn 4) H).
Qed.
Print Assumptions C05_mac_input_injective.

Theorem C05_far_future_rejected : forall mac now age ip id,
  now < two32 -> now + 60 < u32_of (firstn 4 id) -> valid mac now age ip id = false.
Proof.
  intros mac now age ip id Hn H. apply not_true_iff_false. rewrite valid_iff.
  rewrite (u32_add_no_wrap now 60) by (assumption || reflexivity). lia.
Qed.
Print Assumptions C05_far_future_rejected.

Theorem C05_age_zero_never_valid : forall mac t0 now ip,
  t0 < two32 -> now < two32 -> t0 <= now -> valid mac now 0 ip (create mac t0 ip) = false.
Proof.
  intros mac t0 now ip H0 Hn Hle. apply not_true_iff_false.
  rewrite window by (assumption || reflexivity). lia.
Qed.
Print Assumptions C05_age_zero_never_valid.

(* non-vacuity with a concrete (toy) mac: in window, expired, other address *)
Example C05_example :
  let mac := fun bs => fold_left (fun a b => (a * 31 + b + 7) mod two32) bs 5 in
  let id := create mac 100 [10; 0; 0; 1] in
  valid mac 219 120 [10; 0; 0; 1] id = true /\ valid mac 220 120 [10; 0; 0; 1] id = false
  /\ valid mac 100 120 [10; 0; 0; 2] id = false.
Proof. cbv zeta. repeat split; vm_compute; reflexivity. Qed.

(* the validator's whole-second clock is refreshed by the socket worker every 256th poll iteration
   (mio) or on a 5-second pulse (io_uring) - regenerated from the sources: an id lives at most
   max_connection_age seconds of THAT clock, i.e. up to one refresh period longer in real time *)
From Aquatic Require Import Consts.
Theorem C05_clock_refresh_cadence :
  (0 < udp_mio_clock_refresh_polls <= 256)%N /\ (0 < udp_uring_clock_pulse_secs <= 5)%N.
Proof. vm_compute. repeat split; congruence. Qed.
Print Assumptions C05_clock_refresh_cadence.
