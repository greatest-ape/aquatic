(* C12 - no network input can crash parsing or request handling.

   What is a theorem here:
   - the three swarm handlers, with every Rust panic point written into the model as [Panic]
     (usize underflow of the seeder/peer counters, ArrayVec::push beyond capacity, slice indices of
     the peer selection), never reach one: for EVERY history from the empty tracker and every
     field value of every request (numwant and bytes_left range over all of Z, events, ports,
     deadlines, selection offsets are arbitrary) the run is [Ok].  Field extremes such as
     numwant = i32::MIN or left < 0 are instances.
   - the parsers' allocation: a udp scrape request stores at most max_scrape_torrents hashes and
     at most one per 20 bytes of datagram; an http scrape query stores at most one hash per '='.
   The parsers themselves are written with checked reads only (.get, zerocopy prefix reads,
   str::get), so their models are ordinary total functions (UdpCodec.v, HttpCodec.v, WsCodec.v)
   and "returns an error value instead of panicking" is their correspondence with the real code
   under catch_unwind (suites of C13/C14/C15 plus the fuzz-misc stream): TESTING, not proof.
   The interiors of httparse, simd-json/serde_json, serde_bencode, tungstenite and the regex engine
   of the peer-id crate are not modelled at all. *)
From Aquatic Require Import UdpSwarmRefine HttpSwarmRefine.
From Aquatic Require Import UdpCodec HttpCodec RefSwarm HttpSwarm WsSwarm ListFacts UdpCodecFacts HttpCodecFacts WsFacts NoPanicFacts.

Theorem C12_udp_handlers_total : forall cfg ops, exists s outs, u_run cfg uinit ops = Ok (s, outs).
Proof. intros cfg ops. destruct (run_refines cfg ops uinit rinit (R_init cfg)) as (s & outs & H & _). eauto. Qed.
Print Assumptions C12_udp_handlers_total.

Theorem C12_http_handlers_total : forall cfg ops, exists s outs, h_run cfg hinit ops = Ok (s, outs).
Proof. intros cfg ops. destruct (hrun_refines cfg ops hinit rinit (HR_init cfg)) as (s & outs & H & _). eauto. Qed.
Print Assumptions C12_http_handlers_total.

Theorem C12_ws_handlers_total : forall strict cfg ops s, wstate_ok s ->
  exists s' outs, ws_run strict cfg s ops = Ok (s', outs) /\ wstate_ok s'.
Proof.
  intros strict cfg ops. induction ops as [|op t IH]; intros s Hs; cbn [ws_run]; [eauto|].
  destruct (ws_step_ok strict cfg s op Hs) as (s1 & o & E & H1). rewrite E.
  destruct (IH s1 H1) as (s2 & os & E2 & H2). rewrite E2. eauto.
Qed.
Print Assumptions C12_ws_handlers_total.

Theorem C12_udp_scrape_alloc : forall L bytes max cid tid hs,
  parse_request L bytes max = POk (UdpCodec.RScrape cid tid hs) ->
  (length hs <= max)%nat /\ (20 * length hs <= length bytes)%nat /\ Forall (fun h => length h <= 20)%nat hs.
Proof.
  intros L bytes max cid tid hs H. pose proof (parse_cases L bytes max) as Hf. rewrite H in Hf.
  destruct Hf as (_ & H16 & Hmod & ->).
  pose proof (skipn_length 16 bytes) as Hl.
  pose proof (chunks_count (length (skipn 16 bytes)) 20 (skipn 16 bytes) ltac:(lia)) as Hc.
  apply Nat.mod_divides in Hmod; [|lia]. destruct Hmod as [q Hq].
  rewrite firstn_length. repeat split; [lia|lia|].
  apply (incl_Forall (incl_firstn _ _)), chunks_each.
Qed.
Print Assumptions C12_udp_scrape_alloc.

Theorem C12_http_scrape_alloc : forall s hs,
  parse_scrape_query s = Some hs -> (length hs <= length s)%nat.
Proof.
  unfold parse_scrape_query, parse_query. intros s hs H.
  destruct (walk _ _ _ _ _ _) as [r|] eqn:E; [|discriminate].
  assert (Hr : r = hs) by (destruct r; [discriminate|injection H as <-; reflexivity]). subst r.
  apply (walk_measure scrape_kv (@length (list N))) in E.
  - pose proof (positions_of_length ch_eq s 0). cbn [length] in E. lia.
  - intros st k v st' Hk. unfold scrape_kv in Hk. destruct (seq_eqb _ _).
    + destruct (urldecode20 v); [|discriminate]. injection Hk as <-. rewrite app_length. cbn. lia.
    + injection Hk as <-. lia.
Qed.
Print Assumptions C12_http_scrape_alloc.

(* non-vacuity: the run from the empty ws state is covered *)
Example C12_ws_init_ok : wstate_ok winit.
Proof. exact winit_ok. Qed.
