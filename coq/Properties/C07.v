(* C07 - HTTP swarm bookkeeping equals a reference tracker (one swarm worker).
   [cfg] (inline capacity, max_peers, max_scrape_torrents) and the selection offsets are
   universally quantified. *)
From Aquatic Require Import RefSwarm HttpSwarm SwarmCommon HttpSwarmRefine Consts.

Theorem C07_step_refines : forall cfg s r op,
  HR cfg s r ->
  exists s' out, h_step cfg s op = Ok (s', out) /\ HR cfg s' (fst (hr_step r op)) /\ hobs_ok cfg r op out.
Proof. exact hstep_refines. Qed.
Print Assumptions C07_step_refines.

Theorem C07_history_refines : forall cfg ops,
  exists s outs, h_run cfg hinit ops = Ok (s, outs)
                 /\ HR cfg s (hr_final rinit ops) /\ htrace_ok cfg rinit ops outs.
Proof. intros cfg ops. apply hrun_refines. apply HR_init. Qed.
Print Assumptions C07_history_refines.

(* a scrape reports each of the first max_scrape_torrents requested torrents exactly once, with
   the reference counts - zeros for torrents the reference tracker holds nothing for *)
Theorem C07_scrape_once_each : forall cfg s r v6 hashes,
  HR cfg s r ->
  exists files, h_step cfg s (HScrape v6 hashes) = Ok (s, HOScrape files)
    /\ NoDup (map fst files)
    /\ (forall h, In h (map fst files) <-> In h (firstn (Nat.min (length hashes) (hc_max_scrape cfg)) hashes))
    /\ (forall h c, In (h, c) files -> c = ref_counts (r v6 h))
    /\ (forall h c, In (h, c) files -> r v6 h = [] -> c = (0, 0)).
Proof.
  intros cfg s r v6 hashes H. destruct (h_scrape_spec cfg s r v6 hashes H) as (files & E & A & B & C).
  exists files. split; [cbn [h_step]; rewrite E; reflexivity|].
  split; [exact A|]. split; [exact B|]. split; [exact C|].
  intros h c Hin Hr. rewrite (C h c Hin), Hr. reflexivity.
Qed.
Print Assumptions C07_scrape_once_each.

(* the handout set of a torrent is the reference's; an all-gone torrent holds nothing *)
Theorem C07_handout_set : forall cfg s r v6 h,
  HR cfg s r ->
  (forall k, In k (keys (pm_entries (tm_get h (hfam s v6)))) <-> In k (keys (r v6 h)))
  /\ (r v6 h = [] -> pm_entries (tm_get h (hfam s v6)) = []).
Proof.
  intros cfg s r v6 h H. split.
  - intros k. exact (fam_rel_keys _ _ h k (H v6)).
  - exact (fam_rel_nil _ _ h (H v6)).
Qed.
Print Assumptions C07_handout_set.

(* a torrent that is empty in the reference (never seen, all stopped, all expired) is answered
   like any other state with the same reference, and the next cleaning pass drops it *)
Theorem C07_clean_drops_empty : forall cfg s r now mode acl s' out,
  HR cfg s r -> h_step cfg s (HClean now mode acl) = Ok (s', out) ->
  forall v6, Forall (fun e => pm_is_empty (snd e) = false) (hfam s' v6).
Proof.
  intros cfg s r now mode acl s' out H Hstep v6.
  rewrite (h_step_clean_eq cfg s r now mode acl H) in Hstep. injection Hstep as <- _.
  assert (Hne : forall tm, Forall (fun e => pm_is_empty (snd e) = false) (clean_fam (hc_cap cfg) false now mode acl tm)).
  { intros tm. eapply Forall_impl; [|apply clean_fam_nonempty]. intros e He. apply He. }
  destruct v6; apply Hne.
Qed.
Print Assumptions C07_clean_drops_empty.

Theorem C07_at_source_capacity : forall max_peers max_scrape ops,
  let cfg := mkHcfg (N.to_nat http_small_cap) max_peers max_scrape in
  exists s outs, h_run cfg hinit ops = Ok (s, outs) /\ htrace_ok cfg rinit ops outs.
Proof.
  intros mp ms ops cfg. destruct (C07_history_refines cfg ops) as (s & outs & H & _ & T). eauto.
Qed.
Print Assumptions C07_at_source_capacity.

(* non-vacuity: five leechers push a torrent into the heap map; cleaning leaves a heap map with
   fewer than five entries (http does not shrink on clean); a later stop converts it back *)
Example C07_crosses_representations :
  let cfg := mkHcfg 4 50 100 in
  let a k u stop := HAnnounce false 7%N k stop 1%N u None 0 0 in
  exists s1 o1 s2 o2,
    h_run cfg hinit [a 1%N 9%N false; a 2%N 9%N false; a 3%N 9%N false; a 4%N 5%N false; a 5%N 5%N false;
                     HClean 5%N AclOff []] = Ok (s1, o1)
    /\ (exists l ns, tm_get 7%N (h4 s1) = Large l ns /\ length l = 3)
    /\ h_run cfg s1 [a 3%N 9%N true] = Ok (s2, o2)
    /\ (exists l, tm_get 7%N (h4 s2) = Small l /\ length l = 2).
Proof.
  cbv zeta. do 4 eexists. split; [vm_compute; reflexivity|]. split; [vm_compute; eauto|].
  split; [vm_compute; reflexivity|vm_compute; eauto].
Qed.
