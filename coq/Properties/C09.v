(* C09 - WebRTC offers and answers are relayed only along real, unused offers. *)
From Aquatic Require Import WsSwarm AssocFacts WsFacts.

(* offers of a stored, non-stopped sender: offer i goes to receiver i of a duplicate-free selection
   of OTHER stored peers of the same torrent and family; min(offers sent, max_offers, other peers)
   are forwarded; each is tagged with the sender's peer id and addressed to the receiving peer's
   own (socket worker, connection) - for every outcome of the random offsets *)
Theorem C09_offers : forall cfg t rq now offers o1 o2 p,
  wt_ok t -> aget N.eqb (q_pid rq) (wt_peers t) = Some p ->
  exists recv t' outs,
    ws_handle_offers cfg t rq now offers o1 o2 = Ok (t', outs)
    /\ NoDup (wkeys recv) /\ incl recv (wt_peers t) /\ ~ In (q_pid rq) (wkeys recv)
    /\ length recv = Nat.min (Nat.min (length offers) (wc_max_offers cfg)) (length (wt_peers t) - 1)
    /\ outs = map (fun x => WOffer (w_consumer (snd (snd x))) (w_conn (snd (snd x))) (q_hash rq) (q_pid rq) (fst (fst x)) (snd (fst x)))
                  (combine offers recv).
Proof.
  intros cfg t rq now offers o1 o2 p [Hnd Hns] Hp. unfold ws_handle_offers.
  destruct (ws_extract_spec (wt_peers t) (Nat.min (length offers) (wc_max_offers cfg)) (q_pid rq) o1 o2 Hnd (aget_in_keys _ _ _ Hp))
    as (recv & -> & Hr1 & Hr2 & Hr3 & Hr4). cbn [obind]. rewrite Hp.
  pose proof (zip_offers_outs (q_hash rq) (q_pid rq) (valid_until_new now (wc_max_offer_age cfg)) offers recv (w_expect p)) as Hz.
  destruct (ws_zip_offers _ _ _ offers recv (w_expect p)) as [e outs]. cbn [snd] in Hz.
  exists recv. do 2 eexists. split; [reflexivity|]. repeat split; assumption.
Qed.
Print Assumptions C09_offers.

(* none for a 'stopped' announce: the stopped branch of the announce never calls the offer or
   answer handlers (shown on the step function by computation over its structure) *)
Theorem C09_stopped_forwards_nothing : forall strict cfg s rq now o1 o2 s' outs,
  q_stopped rq = true -> ws_announce_gen strict cfg s rq now o1 o2 = Ok (s', outs) ->
  forall m, In m outs -> match m with WOffer _ _ _ _ _ _ | WAnswer _ _ _ _ _ _ | WError _ _ _ => False | _ => True end.
Proof.
  intros strict cfg s rq now o1 o2 s' outs Hst H m Hin. unfold ws_announce_gen in H. rewrite ws_foreign_eq in H.
  destruct (ws_foreign strict rq _).
  - injection H as _ <-. destruct Hin.
  - unfold wstatus_of in H. rewrite Hst in H. apply obind_ok in H as (t1 & _ & H). cbn [obind] in H.
    apply obind_ok in H as (inc & _ & [= _ <-]). destruct Hin as [<-|[]]. exact I.
Qed.
Print Assumptions C09_stopped_forwards_nothing.

(* an answer is forwarded - to the offering peer's connection only - exactly when the addressed
   peer is stored and holds a pending expectation for (answerer, offer id); the expectation is then
   consumed; every other answer yields an error to the answerer (addressee stored) or nothing *)
Theorem C09_answer_iff_pending : forall t rq to_pid oid sdp,
  let '(t', outs) := ws_handle_answer t rq to_pid oid sdp in
  match aget N.eqb to_pid (wt_peers t) with
  | None => outs = [] /\ t' = t
  | Some r =>
      match aget pair_eqb (q_pid rq, oid) (w_expect r) with
      | Some _ => outs = [WAnswer (w_consumer r) (w_conn r) (q_hash rq) (q_pid rq) oid sdp]
                  /\ exists r', aget N.eqb to_pid (wt_peers t') = Some r'
                                /\ w_expect r' = snd (aswap_remove pair_eqb (q_pid rq, oid) (w_expect r))
      | None => outs = [WError (q_consumer rq) (q_conn rq) (q_hash rq)] /\ t' = t
      end
  end.
Proof.
  intros t rq to_pid oid sdp.
  unfold ws_handle_answer. destruct (aget N.eqb to_pid (wt_peers t)) as [r|] eqn:E; [|auto].
  rewrite <- (aswap_remove_fst pair_eqb).
  destruct (aswap_remove pair_eqb (q_pid rq, oid) (w_expect r)) as [[x|] e]; cbn [fst snd]; [|auto].
  split; [reflexivity|]. eexists. split; [apply aget_aput_same|reflexivity].
Qed.
Print Assumptions C09_answer_iff_pending.

Theorem C09_answer_consumed_once : forall (k : N * N) (l : list ((N * N) * N)),
  NoDup (map fst l) -> aget pair_eqb k (snd (aswap_remove pair_eqb k l)) = None.
Proof.
  intros k l.
  assert (Hnotin : forall l0 : list ((N * N) * N), ~ In k (map fst l0) -> aget pair_eqb k l0 = None).
  { induction l0 as [|[k0 v0] t0 IH0]; cbn; [reflexivity|]. destruct (pair_eqb_spec k0 k); tauto. }
  induction l as [|[k' v] t IH]; cbn; [reflexivity|]. intros [Hx Ht]%NoDup_cons_iff.
  destruct (pair_eqb_spec k' k) as [->|Hne]; cbn.
  - apply Hnotin. destruct t as [|e t']; [tauto|]. intros Hin. apply Hx.
    (* the last entry moved to the front: the same keys *)
    pose proof (last_removelast_perm (k, v) (e :: t') ltac:(discriminate)) as HP.
    apply (Permutation_in _ (Permutation_map fst HP) Hin).
  - destruct (aswap_remove pair_eqb k t). cbn in *. destruct (pair_eqb_spec k' k); [contradiction|]. apply IH, Ht.
Qed.
Print Assumptions C09_answer_consumed_once.

(* a cleaning pass at [now] keeps exactly the pending offers whose deadline is in the future *)
Theorem C09_offers_age_out : forall now e,
  w_expect (snd (clean_peer now e)) = filter (fun x => vu_valid (snd x) now) (w_expect (snd e)).
Proof. reflexivity. Qed.
Print Assumptions C09_offers_age_out.

(* non-vacuity: A and B stored; B offers; A answers; the same answer again is an error *)
Example C09_example :
  let cfg := mkWcfg 10 255 100 100 in
  let ann conn pid offers answer := WOpAnnounce (mkWreq 0 conn false 7 pid false (Some 5%N) offers answer) 0%N 0 0 in
  exists s1 o1 s2 o2 s3 o3 s4 o4,
    ws_step cfg winit (ann 1%N 11%N None None) = Ok (s1, o1)
    /\ ws_step cfg s1 (ann 2%N 22%N (Some [(500%N, 9%N)]) None) = Ok (s2, o2)
    /\ o2 = [WOffer 0 1 7 22 500 9; WAnnounce 0 2 7 0 2]
    /\ ws_step cfg s2 (ann 1%N 11%N None (Some (22%N, 500%N, 8%N))) = Ok (s3, o3)
    /\ o3 = [WAnswer 0 2 7 11 500 8; WAnnounce 0 1 7 0 2]
    /\ ws_step cfg s3 (ann 1%N 11%N None (Some (22%N, 500%N, 8%N))) = Ok (s4, o4)
    /\ o4 = [WError 0 1 7; WAnnounce 0 1 7 0 2].
Proof.
  cbv zeta. do 8 eexists.
  (* conjunct by conjunct, so that each step is evaluated before the next mentions its state:
     [split] on an equation with an unresolved state evaluates by unification, far slower *)
  repeat (split; [vm_compute; reflexivity|]). reflexivity.
Qed.
