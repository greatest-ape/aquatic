(* C14 - HTTP wire codec: requests round-trip, replies are canonical bencode.
   `urlencoding::{encode,decode}` (only used for the optional `key` parameter) are Section
   variables: the round-trip theorem assumes exactly that decode inverts encode on that key.
   `httparse` and `serde_bencode` (the bundled client's reply parser) are not modelled: "parses
   back to an equal reply" is checked on the implementation by the correspondence run only. *)
From Coq Require Import String.
From Aquatic Require Import HttpCodec Bencode BufferFacts HttpCodecFacts.

Local Open Scope N_scope.

(* identifiers: every 20-byte value written by the library decodes back ... *)
Theorem C14_urldecode_urlencode : forall bs,
  bytes_ok bs -> length bs = 20%nat -> urldecode20 (urlencode bs) = Some bs.
Proof. exact urldecode20_urlencode. Qed.
Print Assumptions C14_urldecode_urlencode.

(* ... and EXACTLY the strings that spell exactly 20 bytes (each raw - a character up to U+00FF
   other than '%' - or '%' + two hex digits of either case) are accepted, with exactly those bytes *)
Theorem C14_urldecode_exact : forall s bs, urldecode20 s = Some bs <-> spells s bs /\ length bs = 20%nat.
Proof. exact urldecode20_exact. Qed.
Print Assumptions C14_urldecode_exact.

Theorem C14_urldecode_rejects_short : forall s, (length s < 20)%nat -> urldecode20 s = None.
Proof.
  intros s H. destruct (urldecode20 s) as [bs|] eqn:E; [|reflexivity].
  apply urldecode20_exact in E. destruct E as [Hs Hl]. apply spells_length in Hs. lia.
Qed.
Print Assumptions C14_urldecode_rejects_short.

(* recorded finding "urldecode-hex-char-truncation": after '%' the two characters are cast to u8
   before hex decoding, so a non-ASCII character whose low byte is a hex digit passes as one
   (U+0131 has low byte 0x31 = '1') *)
Lemma C14_urldecode_accepts_non_hex_refuted :
  urldecode20 ([ch_pct; 305; 305] ++ repeat 97 19) = Some (17 :: repeat 97 19).
Proof. vm_compute. reflexivity. Qed.

(* the query-string parser: on well-formed key=value segments joined by '&' the lock-step walk over
   '=' and '&' positions is a left-to-right fold over the segments, whatever the handler *)
Theorem C14_walk_is_fold : forall (St : Type) (kv : St -> list N -> list N -> option St) segs st,
  segs <> [] -> Forall (fun kvp => clean (fst kvp) /\ clean (snd kvp)) segs ->
  parse_query kv (render segs) st = fold_kv kv st segs.
Proof. intros St kv. exact (parse_query_render kv). Qed.
Print Assumptions C14_walk_is_fold.

Theorem C14_unknown_keys_ignored : forall url_decode a k v,
  Forall (fun known => bytes_eqb k (HttpResp.str known) = false)
         ["info_hash"; "peer_id"; "port"; "left"; "uploaded"; "downloaded"; "event"; "compact"; "numwant"; "key"]%string ->
  announce_kv url_decode a k v = Some a.
Proof.
  intros url_decode a k v H. unfold announce_kv, seq_eqb.
  repeat (apply Forall_cons_iff in H; destruct H as [-> H]). reflexivity.
Qed.
Print Assumptions C14_unknown_keys_ignored.

(* requests written by the library parse back to an equal request: all events, arbitrary binary
   identifiers, optional fields present or absent *)
Theorem C14_announce_roundtrip : forall url_decode url_encode r,
  areq_wf url_decode url_encode r ->
  parse_path url_decode (write_announce_path url_encode [] r) = Some (HReqAnnounce r).
Proof.
  intros url_decode url_encode r Hwf. rewrite announce_path_render, parse_path_announce. unfold parse_announce_query.
  rewrite (drives_parse _ _ _ _ (drives_announce _ _ r Hwf)) by (unfold announce_segs; discriminate).
  destruct r; reflexivity.
Qed.
Print Assumptions C14_announce_roundtrip.

Theorem C14_scrape_roundtrip : forall url_decode hs,
  hs <> [] -> Forall (fun h => bytes_ok h /\ length h = 20%nat) hs ->
  parse_path url_decode (write_scrape_path [] hs) = Some (HReqScrape hs).
Proof.
  intros url_decode hs Hne H. unfold write_scrape_path. cbn [app].
  rewrite parse_path_scrape, join_hashes_render. unfold parse_scrape_query.
  rewrite (drives_parse _ _ _ _ (drives_scrape hs [] H)) by (destruct hs; [congruence|discriminate]).
  destruct hs; [congruence|reflexivity].
Qed.
Print Assumptions C14_scrape_roundtrip.

(* outside [areq_wf] the library writes requests its own parser rejects (recorded finding
   "writer-emits-unparsable"): an empty scrape, and a key whose encoding exceeds 100 bytes *)
Lemma C14_roundtrip_refuted_outside_wf :
  parse_path (fun x => Some x) (write_scrape_path [] []) = None
  /\ parse_path (fun x => Some x)
       (write_announce_path (fun x => x) []
          (mkAreq (repeat 1 20) (repeat 2 20) 1 0 0 0 EvEmpty None (Some (repeat 107 101)))) = None.
Proof. split; vm_compute; reflexivity. Qed.

(* replies are bencode values in canonical form: sorted keys, compact 6 / 18 byte peer entries *)
Theorem C14_announce_is_canonical_bencode : forall c i iv p4 p6 w,
  Forall (fun p => length (fst p) = 4%nat) p4 -> Forall (fun p => length (fst p) = 16%nat) p6 ->
  write_announce c i iv p4 p6 w = benc (announce_value c i iv p4 p6 w)
  /\ canonical (announce_value c i iv p4 p6 w) = true.
Proof.
  intros c i iv p4 p6 w H4 H6. split; [|destruct w; reflexivity].
  (* the length prefixes of the two compact peer strings *)
  assert (E4 : N.of_nat (length (concat (map peer_bytes p4))) = N.of_nat (length p4) * 6)
    by (rewrite (concat_peer_bytes_length 4 p4 H4); lia).
  assert (E6 : N.of_nat (length (concat (map peer_bytes p6))) = N.of_nat (length p6) * 18)
    by (rewrite (concat_peer_bytes_length 16 p6 H6); lia).
  rewrite benc_flat. unfold write_announce, announce_value. cbn [app benc_to benc_entries_to]. rewrite E4, E6.
  destruct w; [rewrite <- !app_assoc|]; reflexivity.
Qed.
Print Assumptions C14_announce_is_canonical_bencode.

Theorem C14_scrape_is_canonical_bencode : forall files,
  Forall (fun f => length (fst f) = 20%nat) files -> keys_sorted (map fst files) = true ->
  write_scrape files = benc (scrape_value files) /\ canonical (scrape_value files) = true.
Proof.
  intros files H Hs. unfold scrape_value. split.
  - rewrite benc_flat. cbn [benc_entries_to benc_to]. rewrite (scrape_entries_bencode files _ H). reflexivity.
  - cbn [canonical map fst keys_sorted andb].
    assert (E : map fst (map scrape_entry_value files) = map fst files).
    { rewrite map_map. apply map_ext. intros f. reflexivity. }
    rewrite E, Hs, andb_true_r. cbn [andb].
    clear. induction files as [|f t IH]; cbn [map]; [reflexivity|].
    unfold scrape_entry_value at 1. rewrite IH. reflexivity.
Qed.
Print Assumptions C14_scrape_is_canonical_bencode.

Theorem C14_failure_is_canonical_bencode : forall reason,
  write_failure reason = benc (failure_value reason) /\ canonical (failure_value reason) = true.
Proof. intros reason. split; [rewrite benc_flat|]; reflexivity. Qed.
Print Assumptions C14_failure_is_canonical_bencode.

Example C14_example :
  let r := mkAreq (repeat 255 20) (repeat 0 20) 6881 1 2 0 EvStopped (Some 50) (Some [97; 98]) in
  areq_wf (fun x => Some x) (fun x => x) r
  /\ parse_path (fun x => Some x) (write_announce_path (fun x => x) [] r) = Some (HReqAnnounce r).
Proof.
  cbv zeta. split; [|vm_compute; reflexivity].
  assert (Hb : forall x, x < 256 -> bytes_ok (repeat x 20)) by (intros x Hx; apply ListFacts.Forall_repeat, Hx).
  unfold areq_wf, usize_max. cbn [a_info_hash a_peer_id a_port a_uploaded a_downloaded a_left a_numwant a_key].
  split; [apply Hb; lia|]. split; [reflexivity|]. split; [apply Hb; lia|]. split; [reflexivity|].
  do 5 (split; [lia|]).
  split; [reflexivity|]. split; [apply cleanb_clean; reflexivity|]. cbn. lia.
Qed.
