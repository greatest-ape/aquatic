(* C01 - UDP swarm bookkeeping equals a reference tracker.
   Statements only; proofs live in Proofs/.  [cfg] (inline capacity, max_response_peers,
   peer_clients) is universally quantified; the offsets of the random peer selection are
   fields of [UAnnounce] and therefore universally quantified as well. *)
From Aquatic Require Import RefSwarm SwarmCommon UdpSwarmRefine Consts.

(* one step: the model does not panic (no counter underflow, no ArrayVec overflow), stays
   related to the reference tracker, and its reply shows the reference's counts *)
Theorem C01_step_refines : forall cfg s r op,
  R cfg s r ->
  exists s' out, u_step cfg s op = Ok (s', out) /\ R cfg s' (fst (r_step r op)) /\ obs_ok cfg r op out.
Proof. exact step_refines. Qed.
Print Assumptions C01_step_refines.

(* every finite history from the empty tracker *)
Theorem C01_history_refines : forall cfg ops,
  exists s outs, u_run cfg uinit ops = Ok (s, outs)
                 /\ R cfg s (r_final rinit ops) /\ trace_ok cfg rinit ops outs.
Proof. intros cfg ops. apply run_refines. apply R_init. Qed.
Print Assumptions C01_history_refines.

(* the peers the tracker is able to hand out for a torrent are exactly the reference's *)
Theorem C01_handout_set : forall cfg s r v6 h,
  R cfg s r ->
  forall k, In k (keys (pm_entries (tm_get h (ufam s v6)))) <-> In k (keys (r v6 h)).
Proof.
  intros cfg s r v6 h HR k. exact (fam_rel_keys _ _ h k (HR v6)).
Qed.
Print Assumptions C01_handout_set.

(* a torrent whose peers have all stopped or been cleaned holds nothing, and any two concrete
   states with the same reference state (one may keep an empty map, the other none) answer every
   future history with the same counts, namely the reference's *)
Theorem C01_empty_is_unseen : forall cfg s1 s2 r ops,
  R cfg s1 r -> R cfg s2 r ->
  (forall v6 h, r v6 h = [] -> pm_entries (tm_get h (ufam s1 v6)) = [])
  /\ exists s1' outs1 s2' outs2,
       u_run cfg s1 ops = Ok (s1', outs1) /\ u_run cfg s2 ops = Ok (s2', outs2)
       /\ trace_ok cfg r ops outs1 /\ trace_ok cfg r ops outs2.
Proof.
  intros cfg s1 s2 r ops H1 H2. split.
  - intros v6 h. exact (fam_rel_nil _ _ h (H1 v6)).
  - destruct (run_refines cfg ops s1 r H1) as (a & oa & Ha & _ & Ta).
    destruct (run_refines cfg ops s2 r H2) as (b & ob & Hb & _ & Tb).
    exists a, oa, b, ob. auto.
Qed.
Print Assumptions C01_empty_is_unseen.

(* instance at the capacity the source declares today (regenerated from crates/udp/src/swarm.rs) *)
Theorem C01_at_source_capacity : forall max_resp pc ops,
  let cfg := mkUcfg (N.to_nat udp_small_cap) max_resp pc in
  exists s outs, u_run cfg uinit ops = Ok (s, outs) /\ trace_ok cfg rinit ops outs.
Proof.
  intros max_resp pc ops cfg. destruct (C01_history_refines cfg ops) as (s & outs & H & _ & T). eauto.
Qed.
Print Assumptions C01_at_source_capacity.

(* non-vacuity: a reachable history that drives a torrent into the heap representation and back *)
Example C01_crosses_representations :
  let cfg := mkUcfg 2 30 true in
  let a k ev := UAnnounce false 7%N k ev 1%Z 1%N 100%N 0%Z 0 0 in
  exists s1 o1 s2 o2,
    u_run cfg uinit [a 1%N 2%N; a 2%N 2%N; a 3%N 2%N] = Ok (s1, o1)
    /\ (exists l ns, tm_get 7%N (u4 s1) = Large l ns)
    /\ u_run cfg s1 [a 3%N 3%N] = Ok (s2, o2)
    /\ (exists l, tm_get 7%N (u4 s2) = Small l /\ length l = 2).
Proof.
  cbv zeta. do 4 eexists. split; [vm_compute; reflexivity|]. split; [vm_compute; eauto|].
  split; [vm_compute; reflexivity|vm_compute; eauto].
Qed.
