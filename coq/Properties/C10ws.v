(* C10, WebTorrent part: peers and pending offers expire exactly at their deadline. *)
From Aquatic Require Import WsSwarm WsFacts.

(* after a cleaning pass, a permitted torrent holds exactly the peers whose deadline is still in
   the future, each with exactly its unexpired pending offers; forbidden torrents and torrents
   left without peers are gone *)
Theorem C10_ws_clean_exact : forall now mode acl m,
  wmap_ok m -> exists m', ws_clean_fam now mode acl m = Ok m' /\ wmap_ok m'
    /\ forall h, aget N.eqb h m' =
                 match aget N.eqb h m with
                 | Some t => if allows mode acl h
                             then match cleaned_peers now (wt_peers t) with
                                  | [] => None
                                  | ps => Some (mkWt ps (wcount ps))
                                  end
                             else None
                 | None => None
                 end.
Proof. exact ws_clean_fam_ok. Qed.
Print Assumptions C10_ws_clean_exact.

Theorem C10_ws_cleaned_peers : forall now ps k p,
  In (k, p) (cleaned_peers now ps) <->
  exists p0, In (k, p0) ps /\ (now < w_until p0)%N
             /\ p = mkWpeer (w_consumer p0) (w_conn p0) (w_seeder p0) (w_until p0)
                            (filter (fun x => vu_valid (snd x) now) (w_expect p0)).
Proof.
  intros now ps k p. unfold cleaned_peers. rewrite in_map_iff. split.
  - intros [[k0 p0] [E Hin]]. apply filter_In in Hin. destruct Hin as [Hin Hv]. cbn in Hv.
    unfold clean_peer in E. cbn in E. inversion E; subst. exists p0. split; [exact Hin|]. split; [apply N.ltb_lt, Hv|reflexivity].
  - intros [p0 [Hin [Hlt ->]]]. exists (k, p0). split; [reflexivity|]. apply filter_In. split; [exact Hin|]. apply N.ltb_lt, Hlt.
Qed.
Print Assumptions C10_ws_cleaned_peers.

(* the deadline of a peer is set by every accepted non-stopped announce to sample + max_peer_age *)
Theorem C10_ws_deadline_set : forall t rq until st,
  wt_ok t -> st <> WStopped ->
  exists t' p, ws_upsert t rq until st = Ok t' /\ aget N.eqb (q_pid rq) (wt_peers t') = Some p /\ w_until p = until.
Proof.
  intros t rq until st Hok Hst. destruct (ws_upsert_spec t rq until st Hok) as (t' & Hu & _ & Hget).
  specialize (Hget (q_pid rq)). rewrite N.eqb_refl in Hget.
  assert (exists seed, upsert_entry t rq until st = Some (upsert_record t rq until seed)) as [seed E]
    by (destruct st; [exists true|exists false|congruence]; reflexivity).
  exists t', (upsert_record t rq until seed). split; [exact Hu|]. split; [congruence|apply upsert_record_spec].
Qed.
Print Assumptions C10_ws_deadline_set.
