(* C16 - HTTP tracker: one well-framed reply per request; workers are invisible.
   Model/HttpConn.v: k swarm workers behind the routing, split and merge of connection.rs;
   the frame built in the response buffer that every reply of a connection reuses. *)
From Aquatic Require Import RefSwarm HttpSwarmRefine HttpConn HttpConnFacts Consts.

(* connection.rs cuts a scrape's hash list to max_scrape_torrents BEFORE splitting it among the
   swarm workers (regenerated from the source on every run).  Without that cut each worker caps
   only its own share and a k-worker tracker answers up to k * max_scrape_torrents entries. *)
Theorem C16_scrape_cut_precedes_split : http_scrape_cut_before_split = true.
Proof. reflexivity. Qed.
Print Assumptions C16_scrape_cut_precedes_split.

(* workers are invisible: for EVERY number of swarm workers k >= 1, from the empty tracker, every
   history of announces, scrapes and cleaning passes runs without a panic and every reply
   satisfies, against the single reference tracker, exactly the specification C07 proves for the
   one-worker tracker (counts; peer selection; one scrape entry per distinct hash among the first
   max_scrape_torrents requested, with the reference's counts) *)
Theorem C16_workers_invisible : forall cfg k ops, (0 < k)%nat ->
  exists ws outs, sys_run cfg http_scrape_cut_before_split k (sys_init k) ops = Ok (ws, outs)
                  /\ SysR cfg k ws (hr_final rinit ops) /\ htrace_ok cfg rinit ops outs.
Proof.
  intros cfg k ops Hk. rewrite C16_scrape_cut_precedes_split.
  apply (sys_run_refines cfg k Hk). apply SysR_init.
Qed.
Print Assumptions C16_workers_invisible.

Theorem C16_step_refines : forall cfg k ws r op, (0 < k)%nat -> SysR cfg k ws r ->
  exists ws' out, sys_step cfg true k ws op = Ok (ws', out) /\ SysR cfg k ws' (fst (hr_step r op)) /\ hobs_ok cfg r op out.
Proof. intros cfg k ws r op Hk. apply sys_step_refines, Hk. Qed.
Print Assumptions C16_step_refines.

(* framing: the Content-Length field written into the REUSED buffer does not depend on what the
   previous reply left there, so C18_framing_whole (exact frame, length = body + 2, blank
   padding) holds for the second and every later reply of a kept-alive connection too *)
Theorem C16_frame_independent_of_previous_reply : forall HA HB HC buf_size prev body,
  length prev = length HB ->
  frame_reusing HA HB HC buf_size prev body = frame_response HA HB HC buf_size body.
Proof.
  intros HA HB HC buf_size prev body H. unfold frame_reusing, frame_response.
  rewrite (patch_length_fresh HB prev _ H). reflexivity.
Qed.
Print Assumptions C16_frame_independent_of_previous_reply.

Theorem C16_length_field_keeps_its_width : forall HA HB HC buf_size body,
  (length (itoa (N.of_nat (Nat.min (length body) (buf_size - header_len HA HB HC) + 2)%nat)) <= length HB)%nat ->
  length (length_field HA HB HC buf_size body) = length HB.
Proof. intros HA HB HC buf_size body H. unfold length_field. apply overwrite_length, H. Qed.
Print Assumptions C16_length_field_keeps_its_width.
