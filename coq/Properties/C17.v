(* C17 - WebTorrent tracker routes to the right connection; closed ones leave no peers. *)
From Aquatic Require Import WsRouting Consts.

(* connection.rs cuts a scrape's hash list to max_scrape_torrents before splitting it among the
   swarm workers, and answers a scrape that names no torrent at once (facts regenerated from the
   source; without the second one such a scrape parks a pending entry nobody completes) *)
Theorem C17_scrape_cut_precedes_split : ws_scrape_cut_before_split = true.
Proof. reflexivity. Qed.
Print Assumptions C17_scrape_cut_precedes_split.

Theorem C17_empty_scrape_answered : ws_scrape_empty_answered = true.
Proof. reflexivity. Qed.
Print Assumptions C17_empty_scrape_answered.

From Aquatic Require Import AssocFacts WsFacts WsRoutingFacts.

(* what a step hands to clients is, message for message, what the swarm worker addressed to
   connections that are alive; nothing reaches a connection that is gone *)
Theorem C17_delivered_iff_addressed_and_alive : forall cs outs o,
  In (DOut o) (deliver cs outs) <-> In o outs /\ find_conn (wout_dest o) cs <> None.
Proof.
  intros cs outs o. rewrite in_deliver. split; [intros (o' & [= <-] & H); exact H|intros H; exists o; auto].
Qed.
Print Assumptions C17_delivered_iff_addressed_and_alive.

Theorem C17_step_delivers_to_named_live_connections : forall cfg cut ae k y who a y' msgs,
  wsys_step cfg cut ae k y who a = Ok (y', msgs) ->
  forall m, In m msgs -> find_conn (dest m) (y_conns y) <> None \/ find_conn (dest m) (y_conns y') <> None.
Proof. exact step_delivers_to_named_live_connections. Qed.
Print Assumptions C17_step_delivers_to_named_live_connections.

(* a second peer id for a torrent the connection has not stopped: the error, and the connection
   is gone (the running tracker loses the error message itself: recorded finding) *)
Theorem C17_second_peer_id_refused : forall cfg cut ae k y who c rq pid',
  find_conn who (y_conns y) = Some c ->
  aget N.eqb (q_hash rq) (sc_announced c) = Some pid' -> pid' <> q_pid rq ->
  forall y' msgs, wsys_step cfg cut ae k y who (CAnnounce rq) = Ok (y', msgs) ->
    msgs = [DErr (fst who) (snd who) 2] /\ find_conn who (y_conns y') = None.
Proof.
  intros cfg cut ae k y who c rq pid' Hc Ha Hne y' msgs H.
  destruct (wsys_step_refused _ _ _ _ _ _ _ _ _ _ _ Hc Ha Hne H) as (ws' & _ & -> & ->).
  split; [reflexivity|apply find_conn_drop_same].
Qed.
Print Assumptions C17_second_peer_id_refused.

Theorem C17_same_peer_id_forwarded : forall cfg cut ae k y who c rq,
  find_conn who (y_conns y) = Some c ->
  (aget N.eqb (q_hash rq) (sc_announced c) = None \/ aget N.eqb (q_hash rq) (sc_announced c) = Some (q_pid rq)) ->
  forall y' msgs, wsys_step cfg cut ae k y who (CAnnounce rq) = Ok (y', msgs) ->
    exists s' outs, ws_announce cfg (yget (y_workers y) (wroute k (q_hash rq))) rq 0 0 0 = Ok (s', outs)
      /\ y_workers y' = yset (y_workers y) (wroute k (q_hash rq)) s' /\ msgs = deliver (y_conns y') outs.
Proof.
  intros cfg cut ae k y who c rq Hc Ha y' msgs H.
  destruct (wsys_step_forwarded _ _ _ _ _ _ _ _ _ _ Hc Ha H) as (s' & outs & Hs' & -> & ->). exists s', outs. auto.
Qed.
Print Assumptions C17_same_peer_id_forwarded.

(* with both facts above in place: every scrape naming a list gets exactly one reply, on the
   sender's connection, merging the swarm workers' parts *)
Theorem C17_scrape_gets_exactly_one_reply : forall cfg k y who c hs y' msgs,
  find_conn who (y_conns y) = Some c ->
  wsys_step cfg ws_scrape_cut_before_split ws_scrape_empty_answered k y who (CScrape (Some hs)) = Ok (y', msgs) ->
  y' = y /\ exists files, msgs = [DOut (WScrape (fst who) (snd who) files)].
Proof.
  intros cfg k y who c hs y' msgs. rewrite C17_scrape_cut_precedes_split, C17_empty_scrape_answered.
  intros Hc H. unfold wsys_step in H. rewrite Hc in H.
  destruct (firstn (wc_max_scrape cfg) hs) as [|h0 t].
  - injection H as <- <-. split; [reflexivity|]. eauto.
  - apply obind_ok in H as (files & _ & [= <- <-]). split; [reflexivity|]. eauto.
Qed.
Print Assumptions C17_scrape_gets_exactly_one_reply.

Theorem C17_closed_connection_is_gone : forall cfg cut ae k y who y' msgs,
  wsys_step cfg cut ae k y who CClose = Ok (y', msgs) -> msgs = [] /\ find_conn who (y_conns y') = None.
Proof.
  intros cfg cut ae k y who y' msgs.
  unfold wsys_step. intros H. destruct (find_conn who (y_conns y)) as [c|] eqn:Ec.
  - apply obind_ok in H as (ws' & _ & [= <- <-]). split; [reflexivity|]. apply find_conn_drop_same.
  - injection H as <- <-. split; [reflexivity|exact Ec].
Qed.
Print Assumptions C17_closed_connection_is_gone.

From Aquatic Require Import WsCloseFacts.

(* closing runs the clean-up record: afterwards, in the swarm worker that owns each recorded
   torrent, the recorded peer id is gone; torrents the record does not name, and the other
   address family, are untouched; no swarm worker fails *)
Theorem C17_close_clears_every_recorded_entry : forall k v6, (0 < k)%nat -> forall ann ws ws',
  length ws = k -> all_ok k ws -> NoDup (map fst ann) -> close_all k ws v6 ann = Ok ws' ->
  length ws' = k /\ all_ok k ws'
  /\ (forall h pid t', In (h, pid) ann -> aget N.eqb h (wfam (yget ws' (wroute k h)) v6) = Some t' -> aget N.eqb pid (wt_peers t') = None)
  /\ (forall h, ~ In h (map fst ann) -> forall j f, aget N.eqb h (wfam (yget ws' j) f) = aget N.eqb h (wfam (yget ws j) f))
  /\ (forall j h, aget N.eqb h (wfam (yget ws' j) (negb v6)) = aget N.eqb h (wfam (yget ws j) (negb v6))).
Proof.
  intros k v6 Hk ann ws ws' Hlen Hok _ Hc.
  destruct (close_all_spec k v6 Hk ann ws Hlen Hok) as (ws2 & E & Hl & Hok' & Hent & Hfr). rewrite Hc in E. injection E as <-.
  split; [exact Hl|]. split; [exact Hok'|]. split; [|split].
  - intros h pid t' Hin Ht'. destruct (aget N.eqb pid (wt_peers t')) as [p|] eqn:Ep; [|reflexivity].
    destruct (Hent _ v6 h pid p (ex_intro _ t' (conj Ht' Ep))) as [_ []]. auto.
  - intros h Hn j f. apply Hfr. right. exact Hn.
  - intros j h. apply Hfr. left. destruct v6; discriminate.
Qed.
Print Assumptions C17_close_clears_every_recorded_entry.

(* ... and the record names every torrent the connection announced without stopping it, under
   the one peer id it may use there *)
Theorem C17_announce_is_recorded : forall cfg cut ae k y who c rq y' msgs,
  find_conn who (y_conns y) = Some c -> sc_key c = who ->
  (aget N.eqb (q_hash rq) (sc_announced c) = None \/ aget N.eqb (q_hash rq) (sc_announced c) = Some (q_pid rq)) ->
  wsys_step cfg cut ae k y who (CAnnounce rq) = Ok (y', msgs) ->
  exists c', find_conn who (y_conns y') = Some c' /\ sc_key c' = who /\ sc_v6 c' = sc_v6 c
    /\ (q_stopped rq = false -> aget N.eqb (q_hash rq) (sc_announced c') = Some (q_pid rq)).
Proof.
  intros cfg cut ae k y who c rq y' msgs Hc _ Ha H.
  destruct (wsys_step_forwarded _ _ _ _ _ _ _ _ _ _ Hc Ha H) as (s' & outs & _ & -> & _). cbn [y_conns].
  eexists. rewrite find_conn_put. cbn [sc_key]. destruct (pair_eqb_spec who who); [|contradiction].
  split; [reflexivity|]. split; [reflexivity|]. split; [reflexivity|].
  intros Hs. cbn [sc_announced]. unfold record_announce. rewrite Hs. apply aget_aput_same.
Qed.
Print Assumptions C17_announce_is_recorded.

From Aquatic Require Import WsOwnFacts.

(* [Own]: every peer entry of every swarm worker belongs to a LIVE connection of its address
   family whose clean-up record names exactly that (torrent, peer id), and sits in the worker the
   torrent routes to.  It holds initially and is preserved by every action - open, announce
   (accepted, ignored under the ownership rule, stopped, refused for a second peer id), scrape,
   invalid message, close - for every number of swarm workers, provided the socket workers hand
   over requests with the identity and family of the connection they arrived on. *)
Theorem C17_invariant_initially : forall k, Own k (wsys_init k).
Proof.
  intros k.
  assert (Hj : forall j, yget (repeat winit k) j = winit) by (intros j; apply nth_repeat).
  apply Own_iff. cbn [wsys_init y_workers y_conns].
  split; [apply repeat_length|]. split; [intros j _; rewrite Hj; exact winit_ok|]. split; [discriminate|].
  intros j f h pid p _ (t & H & _). rewrite Hj in H. destruct f; discriminate.
Qed.
Print Assumptions C17_invariant_initially.

Theorem C17_invariant_preserved : forall cfg cut ae k y who a y' msgs, (0 < k)%nat ->
  Own k y -> action_wf y who a -> wsys_step cfg cut ae k y who a = Ok (y', msgs) -> Own k y'.
Proof. exact Own_step. Qed.
Print Assumptions C17_invariant_preserved.

Theorem C17_invariant_along_every_history : forall cfg cut ae k, (0 < k)%nat -> forall acts y y' ms,
  Own k y -> run_wf cfg cut ae k y acts -> wsys_run cfg cut ae k y acts = Ok (y', ms) -> Own k y'.
Proof.
  intros cfg cut ae k Hk. induction acts as [|[who a] t IH]; intros y y' ms HO Hwf H; cbn [wsys_run] in H.
  - injection H as <- _. exact HO.
  - cbn [run_wf] in Hwf. destruct Hwf as [Hw Hrest].
    apply obind_ok in H as ([y1 m] & Es & H). apply obind_ok in H as ([y2 ms2] & Er & [= <- _]). rewrite Es in Hrest.
    eapply IH; [eapply Own_step; eassumption|exact Hrest|exact Er].
Qed.
Print Assumptions C17_invariant_along_every_history.

(* no action can make a swarm worker fail *)
Theorem C17_step_total : forall cfg cut ae k y who a, (0 < k)%nat -> Own k y ->
  exists y' msgs, wsys_step cfg cut ae k y who a = Ok (y', msgs).
Proof. exact wsys_step_total. Qed.
Print Assumptions C17_step_total.

(* when a connection closes - or is refused for a second peer id - NO swarm worker holds a peer
   entry created by it any more, without any further message from the client *)
Theorem C17_closed_leaves_no_peers : forall cfg cut ae k y who y' msgs, (0 < k)%nat ->
  Own k y -> wsys_step cfg cut ae k y who CClose = Ok (y', msgs) ->
  forall j f h t pid p, (j < k)%nat ->
    aget N.eqb h (wfam (yget (y_workers y') j) f) = Some t -> aget N.eqb pid (wt_peers t) = Some p -> owner p <> who.
Proof.
  intros cfg cut ae k y who y' msgs Hk HO H. apply (unconnected_owns_nothing k y' who).
  - exact (Own_step cfg cut ae k y who CClose y' msgs Hk HO I H).
  - exact (proj2 (C17_closed_connection_is_gone cfg cut ae k y who y' msgs H)).
Qed.
Print Assumptions C17_closed_leaves_no_peers.

Theorem C17_refused_leaves_no_peers : forall cfg cut ae k y who c rq pid' y' msgs, (0 < k)%nat ->
  Own k y -> find_conn who (y_conns y) = Some c ->
  aget N.eqb (q_hash rq) (sc_announced c) = Some pid' -> pid' <> q_pid rq ->
  wsys_step cfg cut ae k y who (CAnnounce rq) = Ok (y', msgs) ->
  forall j f h t pid p, (j < k)%nat ->
    aget N.eqb h (wfam (yget (y_workers y') j) f) = Some t -> aget N.eqb pid (wt_peers t) = Some p -> owner p <> who.
Proof.
  intros cfg cut ae k y who c rq pid' y' msgs Hk HO Hc Ha Hne H.
  destruct (wsys_step_refused _ _ _ _ _ _ _ _ _ _ _ Hc Ha Hne H) as (ws' & Hcl & -> & _).
  apply (unconnected_owns_nothing k _ who (Own_close k y who c ws' Hk HO Hc Hcl)), find_conn_drop_same.
Qed.
Print Assumptions C17_refused_leaves_no_peers.
