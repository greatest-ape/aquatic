(* C11 - the access list is enforced on announce, on cleaning and across reloads.
   (The announce gates of the three socket workers are stated in C11gates.v on the handler
   models.) *)
From Aquatic Require Import RefSwarm HttpSwarm AccessListFile AccessListFacts UdpSwarmRefine HttpSwarmRefine.
Local Open Scope N_scope.

(* allow: only listed hashes; deny: only unlisted ones; off: everything *)
Theorem C11_mode_semantics : forall l h,
  (allows AclAllow l h = true <-> In h l)
  /\ (allows AclDeny l h = true <-> ~ In h l)
  /\ allows AclOff l h = true.
Proof.
  intros l h. cbn. split; [apply mem_in|split; [|reflexivity]].
  rewrite negb_true_iff, <- not_true_iff_false, mem_in. reflexivity.
Qed.
Print Assumptions C11_mode_semantics.

(* a reload that fails - file unreadable, or ANY malformed line - leaves the previous list fully
   in force; a reload never installs part of a file *)
Theorem C11_failed_reload_keeps_list : forall mode cur,
  mode <> AclOff ->
  reload mode cur None = (cur, false)
  /\ (forall bytes, parse_file bytes = None -> reload mode cur (Some bytes) = (cur, false)).
Proof.
  intros mode cur H. split.
  - rewrite (reload_on _ _ _ H). reflexivity.
  - intros bytes E. rewrite (reload_on _ _ _ H), E. reflexivity.
Qed.
Print Assumptions C11_failed_reload_keeps_list.

Theorem C11_reload_all_or_nothing : forall mode cur io,
  fst (reload mode cur io) = cur
  \/ exists bytes hs, io = Some bytes /\ parse_file bytes = Some hs /\ fst (reload mode cur io) = map le_num hs.
Proof.
  intros mode cur io.
  assert (Hm : mode = AclOff \/ mode <> AclOff) by (destruct mode; (left; reflexivity) || (right; discriminate)).
  destruct Hm as [->|Hon]; [left; reflexivity|]. rewrite (reload_on _ _ _ Hon).
  destruct io as [bytes|]; [|left; reflexivity].
  destruct (parse_file bytes) as [hs|] eqn:E; [right; exists bytes, hs; auto|left; reflexivity].
Qed.
Print Assumptions C11_reload_all_or_nothing.

(* a bad line at ANY position makes the whole file fail; blank lines are skipped *)
Theorem C11_bad_line_any_position : forall pre bad post,
  bad <> [] -> parse_line bad = None -> parse_lines (pre ++ bad :: post) = None.
Proof.
  intros pre bad post Hne Hbad. rewrite parse_lines_app. cbn [parse_lines].
  destruct bad; [congruence|]. rewrite Hbad. destruct (parse_lines pre); reflexivity.
Qed.
Print Assumptions C11_bad_line_any_position.

Theorem C11_blank_lines_skipped : forall pre post,
  parse_lines (pre ++ [] :: post) = parse_lines (pre ++ post).
Proof. intros pre post. rewrite !parse_lines_app. reflexivity. Qed.
Print Assumptions C11_blank_lines_skipped.

(* a 20-byte hash written as 40 hex digits in any mixture of upper and lower case parses back
   to exactly that hash; a line of any other length is rejected; surrounding white space and
   white-space-only lines do not matter *)
Theorem C11_hex_any_case : forall case bs,
  length bs = 20%nat -> Forall (fun b => b < 256) bs -> parse_line (encode_hex case 0 bs) = Some bs.
Proof. intros case bs Hl Hb. unfold parse_line. rewrite decode_encode_hex, Hl by exact Hb. reflexivity. Qed.
Print Assumptions C11_hex_any_case.

Theorem C11_wrong_length_rejected : forall l, length l <> 40%nat -> parse_line l = None.
Proof.
  intros l H. unfold parse_line. destruct (decode_hex l) as [bs|] eqn:E; [|reflexivity].
  apply decode_hex_length in E. destruct (Nat.eqb_spec (length bs) 20); [lia|reflexivity].
Qed.
Print Assumptions C11_wrong_length_rejected.

Theorem C11_whitespace_trimmed : forall pre core post first last mid,
  forallb is_ws pre = true -> forallb is_ws post = true ->
  core = first :: mid ++ [last] -> is_ws first = false -> is_ws last = false ->
  trim (pre ++ core ++ post) = core.
Proof.
  intros pre core post first last mid Hpre Hpost -> Hf Hl. unfold trim.
  cbn [app]. rewrite drop_ws_front by assumption.
  rewrite <- app_assoc. exact (drop_ws_end (first :: mid) last post Hpost Hl).
Qed.
Print Assumptions C11_whitespace_trimmed.

(* after a reload to (mode, acl) the next cleaning pass removes every stored torrent the new
   list forbids and leaves every permitted torrent's unexpired entries untouched (udp, http) *)
Theorem C11_clean_after_reload_udp : forall cfg s r now mode acl,
  R cfg s r ->
  exists s' out, u_step cfg s (UClean now mode acl) = Ok (s', out)
    /\ forall v6 h k p,
         In (k, p) (pm_entries (tm_get h (ufam s' v6)))
         <-> allows mode acl h = true /\ In (k, p) (pm_entries (tm_get h (ufam s v6))) /\ (now < p_until p)%N.
Proof. exact clean_exact. Qed.
Print Assumptions C11_clean_after_reload_udp.

Theorem C11_clean_after_reload_http : forall cfg s r now mode acl,
  HR cfg s r ->
  exists s' out, h_step cfg s (HClean now mode acl) = Ok (s', out)
    /\ forall v6 h k p,
         In (k, p) (pm_entries (tm_get h (hfam s' v6)))
         <-> allows mode acl h = true /\ In (k, p) (pm_entries (tm_get h (hfam s v6))) /\ (now < p_until p)%N.
Proof. exact hclean_exact. Qed.
Print Assumptions C11_clean_after_reload_http.

(* non-vacuity: a two-line file with mixed case, CRLF and padding parses; the same file with one
   digit missing in the second line does not *)
Example C11_parse_example :
  let good := example_file in
  (exists hs, parse_file good = Some hs /\ length hs = 2%nat)
  /\ parse_file (removelast (removelast (removelast good))) = None.
Proof. cbv zeta. split; [eexists; split; vm_compute; reflexivity|vm_compute; reflexivity]. Qed.

From Aquatic Require Import HttpConn WsRouting UdpCodecFacts UdpHandler.

(* http: a forbidden torrent is refused by the socket worker and no swarm worker state changes;
   a permitted announce is what the swarm workers make of it *)
Theorem C11_http_gate : forall mode acl cfg cut k ws op,
  (http_forbidden mode acl op = true -> sys_gate mode acl cfg cut k ws op = Ok (ws, GFailureNotAllowed))
  /\ (http_forbidden mode acl op = false ->
      sys_gate mode acl cfg cut k ws op = match sys_step cfg cut k ws op with Ok (ws', out) => Ok (ws', GOut out) | Panic => Panic end).
Proof.
  intros mode acl cfg cut k ws op. unfold sys_gate. split; intros ->; reflexivity.
Qed.
Print Assumptions C11_http_gate.

(* WebTorrent: the error (kind 4), no bookkeeping, no swarm worker touched *)
Theorem C11_ws_gate : forall mode acl cfg cut ae k y who c rq,
  find_conn who (y_conns y) = Some c ->
  (allows mode acl (q_hash rq) = false -> wsys_gate mode acl cfg cut ae k y who (CAnnounce rq) = Ok (y, [DErr (fst who) (snd who) 4]))
  /\ (allows mode acl (q_hash rq) = true -> wsys_gate mode acl cfg cut ae k y who (CAnnounce rq) = wsys_step cfg cut ae k y who (CAnnounce rq)).
Proof. intros mode acl cfg cut ae k y who c rq Hc. unfold wsys_gate. rewrite Hc. split; intros ->; reflexivity. Qed.
Print Assumptions C11_ws_gate.

(* udp: with a valid connection id, a forbidden torrent gets the error reply and the state is
   unchanged (the general statement is C06_state_changes_only_by_accepted_announce) *)
Theorem C11_udp_gate : forall mac St da ds cfg now st from bytes vs,
  sa_port from <> 0%N ->
  parse_request bep15_layouts bytes (hc_max_scrape cfg) = POk (UdpCodec.RAnnounce vs) ->
  id_valid mac cfg now (canonical from) (int_of (areq_field bep15_layouts vs "connection_id")) = true ->
  allows (hc_acl_mode cfg) (hc_acl cfg) (be_dec (bytes_of (areq_field bep15_layouts vs "info_hash"))) = false ->
  handle bep15_layouts mac St da ds cfg now st from bytes
  = Ok (st, Some (SError (int_of (areq_field bep15_layouts vs "transaction_id")) not_allowed_text)).
Proof.
  intros mac St da ds cfg now st from bytes vs Hp Hr Hv Ha. unfold handle.
  apply N.eqb_neq in Hp. rewrite Hp, Hr, Hv, Ha. reflexivity.
Qed.
Print Assumptions C11_udp_gate.
