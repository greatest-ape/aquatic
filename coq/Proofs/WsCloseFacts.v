(* C17: closing a connection removes, from the swarm worker that owns each torrent, every peer
   entry the connection's clean-up record names. *)
From Aquatic Require Import WsFacts WsRouting WsRoutingFacts.

Definition all_ok (k : nat) (ws : list wstate) : Prop := forall j, (j < k)%nat -> wstate_ok (yget ws j).

Lemma all_ok_yset k ws j s : all_ok k ws -> wstate_ok s -> all_ok k (yset ws j s).
Proof. intros Hok Hs i Hi. rewrite yget_yset. destruct (_ && _); [exact Hs|apply Hok, Hi]. Qed.

Lemma close_all_spec k v6 : (0 < k)%nat -> forall ann ws, length ws = k -> all_ok k ws ->
  exists ws', close_all k ws v6 ann = Ok ws' /\ length ws' = k /\ all_ok k ws'
    (* it only removes entries, among them every one the record names, in the worker its torrent routes to *)
    /\ (forall j f h pid p, wentry (yget ws' j) f h pid p ->
          wentry (yget ws j) f h pid p /\ ~ (f = v6 /\ In (h, pid) ann /\ j = wroute k h))
    (* the other family and the torrents the record does not name are as they were *)
    /\ (forall j f h, f <> v6 \/ ~ In h (map fst ann) ->
          aget N.eqb h (wfam (yget ws' j) f) = aget N.eqb h (wfam (yget ws j) f)).
Proof.
  intros Hk. induction ann as [|[h0 pid0] ann IH]; intros ws Hlen Hok; cbn [close_all].
  - exists ws. split; [reflexivity|]. split; [exact Hlen|]. split; [exact Hok|]. split; [|reflexivity].
    intros j f h pid p He. split; [exact He|]. intros (_ & [] & _).
  - set (j0 := wroute k h0). assert (Hj : (j0 < k)%nat) by apply wroute_lt, Hk.
    destruct (ws_closed_ok (yget ws j0) v6 h0 pid0 (Hok j0 Hj)) as (s1 & Ec & Hok1). rewrite Ec. cbn [obind].
    destruct (IH (yset ws j0 s1)) as (ws' & -> & Hl' & Hok' & Hent & Hfr);
      [rewrite yset_length; exact Hlen|apply all_ok_yset; assumption|].
    exists ws'. split; [reflexivity|]. split; [exact Hl'|]. split; [exact Hok'|]. split.
    + intros j f h pid p He. apply Hent in He. destruct He as [He Hn]. rewrite yget_yset_lt in He by lia.
      destruct (Nat.eqb_spec j j0) as [->|Hne].
      * apply (ws_closed_entries _ _ _ _ _ (Hok j0 Hj) Ec) in He.
        split; [apply He|]. intros (Hf & [[= <- <-]|Hin] & Hr); [apply (proj2 He)|apply Hn]; auto.
      * split; [exact He|]. intros (Hf & [[= <- <-]|Hin] & Hr); [apply Hne, Hr|apply Hn; auto].
    + intros j f h Hne. cbn [map In fst] in Hne. rewrite Hfr, yget_yset_lt by (tauto || lia).
      destruct (Nat.eqb_spec j j0) as [->|]; [|reflexivity]. rewrite (ws_closed_get _ _ _ _ _ (Hok j0 Hj) Ec).
      destruct (Bool.eqb_spec f v6) as [->|]; [|reflexivity]. destruct (N.eqb_spec h h0) as [->|]; [tauto|reflexivity].
Qed.
