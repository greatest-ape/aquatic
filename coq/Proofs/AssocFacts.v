(* Association lists with IndexMap semantics (Model/WsSwarm.v, Section Assoc), for keys in N.
   The peer-map, torrent-map and shared-state models define the same operations under other
   names; the facts files of those models state the equations that bring them here. *)
From Aquatic Require Import WsSwarm.
From Aquatic Require Export ListFacts.

Lemma aswap_remove_fst {K V} (keqb : K -> K -> bool) k (l : list (K * V)) :
  fst (aswap_remove keqb k l) = aget keqb k l.
Proof.
  induction l as [|[k' v] t IH]; cbn; [reflexivity|].
  destruct (keqb k' k); [reflexivity|]. now destruct (aswap_remove keqb k t).
Qed.

Section AssocN.
  Context {V : Type}.
  Implicit Type l : list (N * V).
  Notation akeys := (map (@fst N V)).

  Lemma aget_aput k k' v l : aget N.eqb k' (aput N.eqb k v l) = if N.eqb k' k then Some v else aget N.eqb k' l.
  Proof.
    induction l as [|[k2 v2] t IH]; cbn; [now rewrite N.eqb_sym|].
    destruct (N.eqb_spec k2 k) as [->|Hne]; cbn; [now rewrite (N.eqb_sym k k'); destruct (N.eqb k' k)|].
    rewrite IH. destruct (N.eqb_spec k2 k'), (N.eqb_spec k' k); congruence.
  Qed.

  Lemma aget_aput_same k v l : aget N.eqb k (aput N.eqb k v l) = Some v.
  Proof. now rewrite aget_aput, N.eqb_refl. Qed.

  Lemma aget_aput_other k k' v l : k' <> k -> aget N.eqb k' (aput N.eqb k v l) = aget N.eqb k' l.
  Proof. intros H. rewrite aget_aput. now destruct (N.eqb_spec k' k). Qed.

  Lemma aget_none_notin k l : aget N.eqb k l = None <-> ~ In k (akeys l).
  Proof.
    induction l as [|[k' v'] t IH]; cbn; [tauto|].
    destruct (N.eqb_spec k' k) as [->|Hne]; [split; [discriminate|tauto]|]. rewrite IH. tauto.
  Qed.

  Lemma aget_some_in k v l : aget N.eqb k l = Some v -> In (k, v) l.
  Proof.
    induction l as [|[k' v'] t IH]; cbn; [discriminate|].
    destruct (N.eqb_spec k' k) as [->|_]; [intros [= ->]|]; auto.
  Qed.

  Lemma aget_in_keys k v l : aget N.eqb k l = Some v -> In k (akeys l).
  Proof. intros H%aget_some_in. apply (in_map fst _ _ H). Qed.

  Lemma in_aget k v l : NoDup (akeys l) -> In (k, v) l -> aget N.eqb k l = Some v.
  Proof.
    induction l as [|[k' v'] t IH]; cbn; [tauto|]. intros [Hx Ht]%NoDup_cons_iff [[= -> ->]|Hin].
    - now rewrite N.eqb_refl.
    - destruct (N.eqb_spec k' k) as [->|_]; [|auto]. destruct Hx. apply (in_map fst _ _ Hin).
  Qed.

  Lemma aget_perm k l l' : NoDup (akeys l') -> Permutation l l' -> aget N.eqb k l = aget N.eqb k l'.
  Proof.
    intros Hnd Hp. destruct (aget N.eqb k l) as [v|] eqn:E; symmetry.
    - apply in_aget; [exact Hnd|]. apply (Permutation_in _ Hp), aget_some_in, E.
    - apply aget_none_notin. apply aget_none_notin in E. now rewrite <- (Permutation_map fst Hp).
  Qed.

  Lemma aput_keys k v l : akeys (aput N.eqb k v l) = if aget N.eqb k l then akeys l else akeys l ++ [k].
  Proof.
    induction l as [|[k' v'] t IH]; cbn; [reflexivity|].
    destruct (N.eqb k' k); cbn; [reflexivity|]. rewrite IH. now destruct (aget N.eqb k t).
  Qed.

  Lemma aput_absent k v l : ~ In k (akeys l) -> aput N.eqb k v l = l ++ [(k, v)].
  Proof.
    induction l as [|[k' v'] t IH]; cbn; [reflexivity|]. intros H.
    destruct (N.eqb_spec k' k) as [->|_]; [tauto|]. f_equal. tauto.
  Qed.

  Lemma aput_nodup k v l : NoDup (akeys l) -> NoDup (akeys (aput N.eqb k v l)).
  Proof.
    intros H. rewrite aput_keys. destruct (aget N.eqb k l) eqn:E; [exact H|].
    apply NoDup_snoc; [exact H|]. apply aget_none_notin, E.
  Qed.

  Lemma aput_in_keys k v (l : list (N * V)) x : In x (akeys (aput N.eqb k v l)) <-> x = k \/ In x (akeys l).
  Proof.
    rewrite aput_keys. destruct (aget N.eqb k l) eqn:E.
    - apply aget_in_keys in E. split; [auto|]. now intros [->|].
    - rewrite in_app_iff. cbn. intuition.
  Qed.

  Lemma aput_in k v l x w : In (x, w) (aput N.eqb k v l) -> (x = k /\ w = v) \/ In (x, w) l.
  Proof.
    induction l as [|[k' v'] t IH]; cbn.
    - intros [[= <- <-]|[]]. now left.
    - destruct (N.eqb_spec k' k) as [->|_]; cbn.
      + intros [[= <- <-]|H]; [now left|now right; right].
      + intros [H|H]; [now right; left|]. destruct (IH H); [now left|now right; right].
  Qed.

  Lemma Forall_aput (P : N * V -> Prop) k v l : P (k, v) -> Forall P l -> Forall P (aput N.eqb k v l).
  Proof. rewrite !Forall_forall. intros Hk Hl [x w] [[-> ->]|Hin]%aput_in; [exact Hk|exact (Hl _ Hin)]. Qed.

  Lemma aput_same_value k v l : aget N.eqb k l = Some v -> aput N.eqb k v l = l.
  Proof.
    induction l as [|[k' v'] t IH]; cbn; [discriminate|].
    destruct (N.eqb_spec k' k) as [->|_]; [now intros [= ->]|]. intros H. f_equal. auto.
  Qed.

  Definition aremove (k : N) (l : list (N * V)) : list (N * V) := filter (fun e => negb (N.eqb (fst e) k)) l.

  Lemma aremove_cons k k' v t :
    aremove k ((k', v) :: t) = if N.eqb k' k then aremove k t else (k', v) :: aremove k t.
  Proof. unfold aremove. cbn. now destruct (N.eqb k' k). Qed.

  Lemma aremove_keys k l : akeys (aremove k l) = filter (fun x => negb (N.eqb x k)) (akeys l).
  Proof.
    unfold aremove. induction l as [|[k' v'] t IH]; cbn; [reflexivity|].
    destruct (N.eqb k' k); cbn; now rewrite IH.
  Qed.

  Lemma aremove_nodup k l : NoDup (akeys l) -> NoDup (akeys (aremove k l)).
  Proof. rewrite aremove_keys. apply NoDup_filter. Qed.

  Lemma aremove_not_in k l : ~ In k (akeys (aremove k l)).
  Proof. rewrite aremove_keys. intros [_ H]%filter_In. now rewrite N.eqb_refl in H. Qed.

  Lemma aremove_absent k l : ~ In k (akeys l) -> aremove k l = l.
  Proof.
    induction l as [|[k' v'] t IH]; [reflexivity|]. rewrite aremove_cons. cbn. intros H.
    destruct (N.eqb_spec k' k) as [->|_]; [tauto|]. f_equal. tauto.
  Qed.

  Lemma aget_aremove k k' l : aget N.eqb k' (aremove k l) = if N.eqb k' k then None else aget N.eqb k' l.
  Proof.
    unfold aremove. induction l as [|[k2 v2] t IH]; cbn; [now destruct (N.eqb k' k)|].
    destruct (N.eqb_spec k2 k) as [->|Hne]; cbn; rewrite IH; [now rewrite (N.eqb_sym k k'); destruct (N.eqb k' k)|].
    destruct (N.eqb_spec k2 k'), (N.eqb_spec k' k); congruence.
  Qed.

  Lemma aget_aremove_same k l : aget N.eqb k (aremove k l) = None.
  Proof. now rewrite aget_aremove, N.eqb_refl. Qed.

  Lemma aget_aremove_other k k' l : k' <> k -> aget N.eqb k' (aremove k l) = aget N.eqb k' l.
  Proof. intros H. rewrite aget_aremove. now destruct (N.eqb_spec k' k). Qed.

  Lemma aremove_present k v l :
    NoDup (akeys l) -> aget N.eqb k l = Some v -> Permutation l ((k, v) :: aremove k l).
  Proof.
    induction l as [|[k' v'] t IH]; cbn [aget map fst]; [discriminate|]. intros [Hx Ht]%NoDup_cons_iff.
    rewrite aremove_cons. destruct (N.eqb_spec k' k) as [->|_].
    - intros [= ->]. now rewrite (aremove_absent _ _ Hx).
    - intros H. rewrite perm_swap. constructor. exact (IH Ht H).
  Qed.

  Lemma aremove_length k l :
    NoDup (akeys l) -> length l = length (aremove k l) + (if aget N.eqb k l then 1 else 0).
  Proof.
    intros H. destruct (aget N.eqb k l) as [v|] eqn:E.
    - rewrite (Permutation_length (aremove_present _ _ _ H E)). cbn. lia.
    - apply aget_none_notin in E. rewrite (aremove_absent _ _ E). lia.
  Qed.

  (* IndexMap::swap_remove fills the hole with the last entry: the entries of plain removal
     in another order *)
  Lemma aswap_remove_perm k l : NoDup (akeys l) -> Permutation (snd (aswap_remove N.eqb k l)) (aremove k l).
  Proof.
    induction l as [|[k' v'] t IH]; [constructor|]. cbn [aswap_remove map fst]. rewrite aremove_cons.
    intros [Hx Ht]%NoDup_cons_iff. destruct (N.eqb_spec k' k) as [->|_]; cbn [snd].
    - rewrite (aremove_absent _ _ Hx). destruct t as [|e t']; [constructor|]. now apply last_removelast_perm.
    - specialize (IH Ht). destruct (aswap_remove N.eqb k t). now constructor.
  Qed.

  Lemma aswap_remove_nodup k l : NoDup (akeys l) -> NoDup (akeys (snd (aswap_remove N.eqb k l))).
  Proof.
    intros H. eapply Permutation_NoDup; [|apply (aremove_nodup k), H].
    apply Permutation_sym, Permutation_map, aswap_remove_perm, H.
  Qed.

  Lemma aget_aswap_remove k k' l :
    NoDup (akeys l) -> aget N.eqb k' (snd (aswap_remove N.eqb k l)) = aget N.eqb k' (aremove k l).
  Proof. intros H. apply aget_perm; [apply aremove_nodup, H|apply aswap_remove_perm, H]. Qed.

  Lemma aswap_remove_present k v l :
    NoDup (akeys l) -> aget N.eqb k l = Some v -> Permutation l ((k, v) :: snd (aswap_remove N.eqb k l)).
  Proof. intros H E. rewrite (aswap_remove_perm k l H). apply aremove_present; assumption. Qed.

  Lemma aget_filter (f : N * V -> bool) k l :
    NoDup (akeys l) ->
    aget N.eqb k (filter f l) = match aget N.eqb k l with Some v => if f (k, v) then Some v else None | None => None end.
  Proof.
    induction l as [|[k' v] t IH]; cbn; [reflexivity|]. intros [Hx Ht]%NoDup_cons_iff.
    destruct (N.eqb_spec k' k) as [->|Hne].
    - destruct (f (k, v)); cbn; [now rewrite N.eqb_refl|].
      apply aget_none_notin. intros Hin. apply Hx. revert Hin. apply incl_map, incl_filter.
    - rewrite <- (IH Ht). destruct (f (k', v)); cbn; [|reflexivity]. now destruct (N.eqb_spec k' k).
  Qed.

  Lemma aget_map {V'} (g : N -> V -> V') k l :
    aget N.eqb k (map (fun e => (fst e, g (fst e) (snd e))) l) = option_map (g k) (aget N.eqb k l).
  Proof.
    induction l as [|[k' v] t IH]; cbn; [reflexivity|]. destruct (N.eqb_spec k' k) as [->|_]; [reflexivity|exact IH].
  Qed.

  Lemma akeys_map {V'} (g : N -> V -> V') l : map fst (map (fun e => (fst e, g (fst e) (snd e))) l) = akeys l.
  Proof. rewrite map_map. reflexivity. Qed.
End AssocN.

(* a cleaning pass: every value rewritten, then entries dropped *)
Lemma pass_nodup {V V'} (f : N * V' -> bool) (g : N -> V -> V') l :
  NoDup (map fst l) -> NoDup (map fst (filter f (map (fun e => (fst e, g (fst e) (snd e))) l))).
Proof. intros H. apply NoDup_map_filter. now rewrite akeys_map. Qed.

Lemma aget_pass {V V'} (f : N * V' -> bool) (g : N -> V -> V') k l :
  NoDup (map fst l) ->
  aget N.eqb k (filter f (map (fun e => (fst e, g (fst e) (snd e))) l))
  = match aget N.eqb k l with Some v => if f (k, g k v) then Some (g k v) else None | None => None end.
Proof. intros H. rewrite aget_filter, aget_map by now rewrite akeys_map. now destruct (aget N.eqb k l). Qed.
