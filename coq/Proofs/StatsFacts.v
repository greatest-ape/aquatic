(* C20: totals, export lines, tally laws, atomic replacement of the export file. *)
From Aquatic Require Import WsSwarm RefSwarm Export PeerMapFacts PeerMapRefine SwarmCommon.

Definition tally_wf (t : tally) : Prop := NoDup (map fst t) /\ Forall (fun e => 0 < snd e) t.

(* the tally is an association list from ids to counts: an absent id counts 0, PeerAdded puts the
   successor, PeerRemoved puts the predecessor or removes the entry at 1 *)
Lemma tally_count_aget t q : tally_count t q = match aget N.eqb q t with Some c => c | None => 0 end.
Proof. induction t as [|[p c] r IH]; cbn; [reflexivity|]. now destruct (N.eqb p q). Qed.

Lemma tally_add_aput pid t : tally_add pid t = aput N.eqb pid (S (tally_count t pid)) t.
Proof.
  induction t as [|[p c] r IH]; cbn; [reflexivity|]. destruct (N.eqb p pid); [reflexivity|]. now rewrite IH.
Qed.

Lemma tally_remove_spec pid t :
  NoDup (map fst t) ->
  tally_remove pid t = match aget N.eqb pid t with
                       | Some c => if c =? 1 then aremove pid t else aput N.eqb pid (c - 1) t
                       | None => t
                       end.
Proof.
  induction t as [|[p c] r IH]; cbn [tally_remove aget map fst]; [reflexivity|]. intros [Hx Hr]%NoDup_cons_iff.
  rewrite aremove_cons. cbn [aput]. destruct (N.eqb_spec p pid) as [->|_].
  - now rewrite (aremove_absent _ _ Hx).
  - rewrite (IH Hr). destruct (aget N.eqb pid r) as [c'|]; [|reflexivity]. now destruct (c' =? 1).
Qed.

Lemma tally_count_add pid t q :
  tally_count (tally_add pid t) q = if N.eqb pid q then S (tally_count t q) else tally_count t q.
Proof.
  rewrite tally_add_aput, !tally_count_aget, aget_aput, (N.eqb_sym q pid).
  destruct (N.eqb_spec pid q) as [->|_]; reflexivity.
Qed.

Lemma tally_count_remove pid t q :
  NoDup (map fst t) ->
  tally_count (tally_remove pid t) q = if N.eqb pid q then tally_count t q - 1 else tally_count t q.
Proof.
  intros Hnd. rewrite (tally_remove_spec pid t Hnd), !tally_count_aget.
  destruct (aget N.eqb pid t) as [c|] eqn:E.
  2: { destruct (N.eqb_spec pid q) as [<-|_]; [rewrite E|]; reflexivity. }
  destruct (N.eqb_spec pid q) as [<-|Hne].
  - rewrite E. destruct (Nat.eqb_spec c 1) as [->|_]; [rewrite aget_aremove_same|rewrite aget_aput_same]; reflexivity.
  - destruct (c =? 1); [rewrite aget_aremove_other|rewrite aget_aput_other]; auto.
Qed.

(* PeerAdded never stores 0; PeerRemoved drops the entry instead of storing 0 *)
Lemma tally_step_wf t m : tally_wf t -> tally_wf (tally_step t m).
Proof.
  intros [Hnd Hpos]. destruct m as [pid|pid]; cbn [tally_step].
  - rewrite tally_add_aput. split; [apply aput_nodup, Hnd|apply Forall_aput; [cbn; lia|exact Hpos]].
  - rewrite (tally_remove_spec pid t Hnd). destruct (aget N.eqb pid t) as [c|] eqn:E; [|split; assumption].
    destruct (Nat.eqb_spec c 1) as [->|Hc].
    + split; [apply aremove_nodup, Hnd|apply (incl_Forall (incl_filter _ _) Hpos)].
    + split; [apply aput_nodup, Hnd|apply Forall_aput; [|exact Hpos]].
      pose proof (proj1 (Forall_forall _ _) Hpos _ (aget_some_in _ _ _ E)). cbn in *. lia.
Qed.

Definition msg_delta (pid : N) (c : nat) (m : statmsg) : nat :=
  match m with
  | PeerAdded p => if N.eqb p pid then S c else c
  | PeerRemoved p => if N.eqb p pid then c - 1 else c
  end.

Definition pid_count (pid : N) (l : entries) : nat :=
  length (filter (fun e => N.eqb (p_id (snd e)) pid) l).

Lemma pid_count_perm pid l l' : Permutation l l' -> pid_count pid l = pid_count pid l'.
Proof. intros H. unfold pid_count. apply Permutation_length, Permutation_filter, H. Qed.

Lemma pid_count_cons pid e l : pid_count pid (e :: l) = (if N.eqb (p_id (snd e)) pid then 1 else 0) + pid_count pid l.
Proof. unfold pid_count. cbn [filter]. destruct (N.eqb (p_id (snd e)) pid); reflexivity. Qed.

Lemma pid_count_snoc pid l e : pid_count pid (l ++ [e]) = pid_count pid l + (if N.eqb (p_id (snd e)) pid then 1 else 0).
Proof. unfold pid_count. rewrite filter_app, app_length. cbn [filter]. destruct (N.eqb (p_id (snd e)) pid); reflexivity. Qed.

Lemma pid_count_remove pid k l :
  NoDup (keys l) ->
  pid_count pid l = pid_count pid (ref_remove k l)
                    + match find_key k l with Some p => if N.eqb (p_id p) pid then 1 else 0 | None => 0 end.
Proof.
  intros H. rewrite find_key_aget. change (ref_remove k l) with (aremove k l).
  destruct (aget N.eqb k l) as [p|] eqn:E.
  - rewrite (pid_count_perm pid _ _ (aremove_present _ _ _ H E)), pid_count_cons. apply Nat.add_comm.
  - apply aget_none_notin in E. rewrite (aremove_absent _ _ E). lia.
Qed.

(* a message only when the key's presence changes: a stored one stops, or an absent one comes *)
Lemma announce_msgs_cases st pid removed :
  announce_msgs true st pid removed
  = match is_stopped st, removed with
    | true, Some _ => [PeerRemoved pid] | false, None => [PeerAdded pid] | _, _ => []
    end.
Proof. destruct st, removed; reflexivity. Qed.

(* an announce changes the per-id counts of its torrent exactly as its messages say, PROVIDED
   the stored entry (if any) carries the announced peer id - the known finding is the other case.
   Stated over any base count [n] (the entries of other torrents): the -1 of a PeerRemoved is
   never cut off at zero, so the law carries over to sums. *)
Lemma announce_tally_law cap shrink pm key st pid until take o1 o2 pm' rep removed q n :
  pmap_inv cap shrink pm ->
  pm_announce cap pm key st pid until take o1 o2 = Ok (pm', rep, removed) ->
  (forall p, removed = Some p -> p_id p = pid) ->
  n + pid_count q (pm_entries pm')
  = fold_left (msg_delta q) (announce_msgs true st pid removed) (n + pid_count q (pm_entries pm)).
Proof.
  intros Hinv Ha Hsame.
  destruct (pm_announce_inv pm key st pid until take o1 o2 pm' rep removed Hinv Ha) as (Hrem & _ & Href & _).
  rewrite (pid_count_perm q _ _ Href), (pid_count_remove q key (pm_entries pm) (proj1 Hinv)), <- Hrem.
  rewrite announce_msgs_cases. unfold ref_announce. cbn [fst].
  (* the stored entry, if any, goes; unless the peer stopped, one carrying [pid] comes *)
  destruct (is_stopped st), removed as [p|]; cbn [fold_left msg_delta].
  - (* stopped, stored: PeerRemoved *) rewrite (Hsame p eq_refl). destruct (N.eqb pid q); lia.
  - (* stopped, not stored: no message *) lia.
  - (* stored, replaced by an entry with the same id: no message *)
    rewrite (Hsame p eq_refl), pid_count_snoc. cbn [snd p_id]. lia.
  - (* not stored: PeerAdded *) rewrite pid_count_snoc. cbn [snd p_id]. destruct (N.eqb pid q); lia.
Qed.

Lemma removed_msgs_delta q now l : forall n,
  fold_left (msg_delta q) (removed_msgs true now l) (n + pid_count q l) = n + pid_count q (filter (peer_valid now) l).
Proof.
  unfold removed_msgs. induction l as [|e t IH]; intros n; [reflexivity|].
  rewrite pid_count_cons, Nat.add_assoc. cbn [filter]. destruct (peer_valid now e); cbn [negb map fold_left msg_delta].
  - rewrite pid_count_cons, Nat.add_assoc. apply IH.
  - rewrite <- IH. f_equal. destruct (N.eqb (p_id (snd e)) q); lia.
Qed.

Lemma clean_tally_law cap shrink pm now pm' cnt msgs q :
  pmap_inv cap shrink pm ->
  pm_clean cap shrink true pm now = Ok (pm', cnt, msgs) ->
  pid_count q (pm_entries pm') = fold_left (msg_delta q) msgs (pid_count q (pm_entries pm)).
Proof.
  intros Hinv Hc. rewrite (pm_clean_eq true pm now Hinv) in Hc. injection Hc as <- _ <-.
  rewrite pm_clean_pure_entries. symmetry. apply (removed_msgs_delta q now _ 0).
Qed.

(* The tally over a whole history of one torrent:
   any sequence of announces and cleaning passes on one peer map; `stable` records whether every
   stored entry that an announce replaced or removed carried the announced peer id (the recorded
   finding "tally-peer-id-change" is exactly the histories where it is false) *)
Inductive pmop :=
| PAnn (key : N) (st : status) (pid until : N) (take o1 o2 : nat)
| PClean (now : N).

Fixpoint pm_hist (cap : nat) (shrink : bool) (pm : pmap) (ops : list pmop)
  : outcome (pmap * list statmsg * bool) :=
  match ops with
  | [] => Ok (pm, [], true)
  | PAnn key st pid until take o1 o2 :: t =>
      match pm_announce cap pm key st pid until take o1 o2 with
      | Ok (pm1, _, removed) =>
          match pm_hist cap shrink pm1 t with
          | Ok (pm2, msgs, stable) =>
              Ok (pm2, announce_msgs true st pid removed ++ msgs,
                  (match removed with Some p => N.eqb (p_id p) pid | None => true end) && stable)
          | Panic => Panic
          end
      | Panic => Panic
      end
  | PClean now :: t =>
      match pm_clean cap shrink true pm now with
      | Ok (pm1, _, m) =>
          match pm_hist cap shrink pm1 t with
          | Ok (pm2, msgs, stable) => Ok (pm2, m ++ msgs, stable)
          | Panic => Panic
          end
      | Panic => Panic
      end
  end.

Lemma pm_hist_spec cap shrink ops : forall pm,
  pmap_inv cap shrink pm ->
  exists pm' msgs stable, pm_hist cap shrink pm ops = Ok (pm', msgs, stable) /\ pmap_inv cap shrink pm'
    /\ (stable = true -> forall q,
          pid_count q (pm_entries pm') = fold_left (msg_delta q) msgs (pid_count q (pm_entries pm))).
Proof.
  induction ops as [|op t IH]; intros pm Hinv.
  { exists pm, [], true. split; [reflexivity|]. split; [exact Hinv|reflexivity]. }
  destruct op as [key st pid until take o1 o2|now]; cbn [pm_hist].
  - destruct (pm_announce_refines pm _ key st pid until take o1 o2 Hinv (Permutation_refl _)) as (pm1 & rep & Ha & Hinv1 & _).
    rewrite Ha. destruct (IH pm1 Hinv1) as (pm2 & msgs & stable & -> & Hinv2 & Hlaw).
    do 3 eexists; split; [reflexivity|]. split; [exact Hinv2|].
    intros Hst q. apply andb_true_iff in Hst. destruct Hst as [Hsame ->].
    rewrite fold_left_app, (Hlaw eq_refl q). f_equal.
    apply (announce_tally_law cap shrink pm key st pid until take o1 o2 pm1 rep _ q 0 Hinv Ha).
    intros p E. rewrite E in Hsame. apply N.eqb_eq, Hsame.
  - rewrite (pm_clean_eq true pm now Hinv).
    destruct (IH _ (pm_clean_pure_inv now pm Hinv)) as (pm2 & msgs & stable & -> & Hinv2 & Hlaw).
    do 3 eexists; split; [reflexivity|]. split; [exact Hinv2|].
    intros -> q. rewrite fold_left_app, (Hlaw eq_refl q). f_equal.
    apply (clean_tally_law cap shrink pm now _ _ _ q Hinv (pm_clean_eq true pm now Hinv)).
Qed.

Definition tm_pid_count (q : N) (tm : tmap) : nat :=
  list_sum (map (fun e => pid_count q (pm_entries (snd e))) tm).

(* the other torrents of the family contribute a count [n] that [tm_set h] does not touch *)
Lemma tm_pid_count_split q h tm :
  exists n, tm_pid_count q tm = n + pid_count q (pm_entries (tm_get h tm))
            /\ forall pm, tm_pid_count q (tm_set h pm tm) = n + pid_count q (pm_entries pm).
Proof.
  unfold tm_pid_count, tm_get, tm_find, list_sum.
  induction tm as [|[h' pm'] t (n & E1 & E2)]; cbn [tm_set map fold_right find fst snd option_map].
  - exists 0. split; [reflexivity|]. intros pm. cbn. lia.
  - destruct (N.eqb h' h); cbn [option_map snd map fst fold_right].
    + eexists. split; [apply Nat.add_comm|intros pm; apply Nat.add_comm].
    + exists (pid_count q (pm_entries pm') + n). rewrite E1. split; [lia|]. intros pm. rewrite E2. lia.
Qed.

Lemma fs_step_path_preserved spill s st : st <> FRename -> f_path (fs_step spill s st) = f_path s.
Proof. destruct st; cbn; intros H; try reflexivity. congruence. Qed.

Lemma fs_run_no_rename spills steps : forall i s,
  ~ In FRename steps -> f_path (fs_run spills i s steps) = f_path s.
Proof.
  induction steps as [|st r IH]; intros i s H; [reflexivity|]. apply not_in_cons in H as [Hne Hr].
  cbn [fs_run]. rewrite (IH _ _ Hr). apply fs_step_path_preserved. congruence.
Qed.

Lemma writes_no_rename lines : ~ In FRename (map FWriteLine lines).
Proof. intros [x [Hx _]]%in_map_iff. discriminate. Qed.

Lemma rename_is_last lines k : k < length (export_steps lines) -> ~ In FRename (firstn k (export_steps lines)).
Proof.
  assert (E : export_steps lines = (FCreateTmp :: map FWriteLine lines ++ [FFlush; FClose]) ++ [FRename])
    by (unfold export_steps; cbn; rewrite <- app_assoc; reflexivity).
  rewrite E, app_length, Nat.add_1_r, firstn_app. intros Hk. replace (k - _) with 0 by lia. rewrite app_nil_r.
  intros [H|[H|H]%in_app_or]%incl_firstn; [discriminate|exact (writes_no_rename _ H)|].
  destruct H as [H|[H|[]]]; discriminate.
Qed.

Lemma fs_run_app spills a b : forall i s,
  fs_run spills i s (a ++ b) = fs_run spills (i + length a) (fs_run spills i s a) b.
Proof. induction a as [|st r IH]; intros i s; cbn; [now rewrite Nat.add_0_r|]. rewrite IH. f_equal. lia. Qed.

(* what a flush would leave in the temporary file: written through or still in the BufWriter,
   every line handed to it is there, however the writer spilled *)
Definition flushed (s : fs) : option (list (list N)) := option_map (fun t => t ++ f_buf s) (f_tmp s).

Lemma flushed_write spill s l : flushed (fs_step spill s (FWriteLine l)) = option_map (fun t => t ++ [l]) (flushed s).
Proof.
  unfold flushed. cbn [fs_step f_tmp f_buf]. destruct (f_tmp s) as [t|]; [|reflexivity]. cbn [option_map].
  rewrite <- app_assoc, firstn_skipn, app_assoc. reflexivity.
Qed.

Lemma flushed_writes spills lines : forall i s,
  flushed (fs_run spills i s (map FWriteLine lines)) = option_map (fun t => t ++ lines) (flushed s).
Proof.
  induction lines as [|l r IH]; intros i s; cbn [map fs_run].
  - destruct (flushed s); cbn; [rewrite app_nil_r|]; reflexivity.
  - rewrite IH, flushed_write. destruct (flushed s); cbn; [rewrite <- app_assoc|]; reflexivity.
Qed.

Lemma finish_path spills i s :
  f_path (fs_run spills i s [FFlush; FClose; FRename]) = match flushed s with Some t => Some t | None => f_path s end.
Proof. unfold flushed. cbn. destruct (f_tmp s); reflexivity. Qed.

Lemma export_complete spills old stale lines :
  f_path (fs_run spills 0 (mkFs old stale []) (export_steps lines)) = Some lines.
Proof. unfold export_steps. cbn [fs_run]. rewrite fs_run_app, finish_path, flushed_writes. reflexivity. Qed.

(* the path changes at the rename only, and by then the temporary file is complete *)
Theorem export_atomic spills old stale lines k :
  let view := f_path (fs_run spills 0 (mkFs old stale []) (firstn k (export_steps lines))) in
  view = old \/ view = Some lines.
Proof.
  cbv zeta. destruct (Nat.le_gt_cases (length (export_steps lines)) k) as [Hk|Hk].
  - right. rewrite firstn_all2 by exact Hk. apply export_complete.
  - left. apply (fs_run_no_rename spills _ 0 (mkFs old stale [])), rename_is_last, Hk.
Qed.

Section Totals.
  Variable cfg : ucfg.
  Let cap := c_cap cfg.
  Notation clean_entry := (clean_entry cap true).

  Definition peers_of (e : N * pmap) : nat := length (pm_entries (snd e)).
  Definition total_peers (tm : tmap) : nat := list_sum (map peers_of tm).

  Definition line_of (v6 : bool) (e : N * pmap) : list (bool * N * nat * nat) :=
    let l := pm_entries (snd e) in
    if length l =? 0 then [] else [(v6, fst e, count_seeders l, length l - count_seeders l)].

  Lemma peers_of_empty e : pm_is_empty (snd e) = true -> peers_of e = 0.
  Proof. intros H. unfold peers_of. now rewrite (proj1 (pm_is_empty_nil _) H). Qed.

  Lemma line_of_empty v6 e :
    line_of v6 e = if pm_is_empty (snd e) then []
                   else [(v6, fst e, count_seeders (pm_entries (snd e)),
                          length (pm_entries (snd e)) - count_seeders (pm_entries (snd e)))].
  Proof. unfold line_of. now rewrite pm_is_empty_length. Qed.

  Lemma total_peers_filter (f : N * pmap -> bool) tm :
    (forall e, In e tm -> f e = false -> peers_of e = 0) -> total_peers (filter f tm) = total_peers tm.
  Proof.
    unfold total_peers. induction tm as [|e t IH]; intros H; [reflexivity|].
    specialize (IH (fun e0 Hin => H e0 (or_intror Hin))). cbn [filter].
    destruct (f e) eqn:E; simpl; rewrite IH; [reflexivity|]. now rewrite (H e (or_introl eq_refl) E).
  Qed.

  Lemma lines_hashes v6 tm :
    map (fun x => snd (fst (fst x))) (flat_map (line_of v6) tm)
    = map fst (filter (fun e => negb (pm_is_empty (snd e))) tm).
  Proof.
    induction tm as [|e t IH]; cbn [flat_map filter]; [reflexivity|].
    rewrite map_app, IH, line_of_empty. now destruct (pm_is_empty (snd e)).
  Qed.

  Lemma clean_phase1_eq v6 now tm :
    Forall (fun e => pmap_inv cap true (snd e)) tm ->
    clean_phase1 cfg v6 now tm
    = Ok (map (clean_entry now) tm,
          total_peers (map (clean_entry now) tm),
          flat_map (fun e => removed_msgs (c_peer_clients cfg) now (pm_entries (snd e))) tm,
          flat_map (line_of v6) (map (clean_entry now) tm)).
  Proof.
    induction 1 as [|[h pm] t Hpm _ IH]; cbn [clean_phase1 map flat_map]; [reflexivity|].
    fold cap. rewrite (pm_clean_eq (c_peer_clients cfg) pm now Hpm), IH. unfold ref_counts. cbn [obind snd].
    rewrite count_seeders_split.
    unfold total_peers, peers_of, line_of. cbn [map list_sum fst snd SwarmCommon.clean_entry].
    rewrite pm_clean_pure_entries. destruct (length _ =? 0); reflexivity.
  Qed.
End Totals.
