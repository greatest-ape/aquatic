(* C17: the connection table and the worker list of the routing model; delivery of the swarm workers'
   messages; the two branches of a connected client's announce. *)
From Aquatic Require Import AssocFacts WsFacts WsRouting.

Lemma find_conn_drop key k0 cs : find_conn key (drop_conn k0 cs) = if pair_eqb k0 key then None else find_conn key cs.
Proof.
  unfold find_conn, drop_conn. induction cs as [|c t IH]; cbn; [destruct (pair_eqb k0 key); reflexivity|].
  destruct (pair_eqb_spec (sc_key c) k0) as [->|Hne]; cbn.
  - rewrite IH. destruct (pair_eqb k0 key); reflexivity.
  - destruct (pair_eqb_spec (sc_key c) key) as [<-|]; [|exact IH]. destruct (pair_eqb_spec k0 (sc_key c)); [congruence|reflexivity].
Qed.

Lemma find_conn_put key c cs : find_conn key (put_conn c cs) = if pair_eqb (sc_key c) key then Some c else find_conn key cs.
Proof.
  unfold put_conn. unfold find_conn at 1. cbn [find]. destruct (pair_eqb_spec (sc_key c) key) as [E|Hne]; [reflexivity|].
  fold (find_conn key (drop_conn (sc_key c) cs)). rewrite find_conn_drop.
  destruct (pair_eqb_spec (sc_key c) key); [contradiction|reflexivity].
Qed.

Lemma find_conn_drop_same key cs : find_conn key (drop_conn key cs) = None.
Proof. rewrite find_conn_drop. destruct (pair_eqb_spec key key); [reflexivity|contradiction]. Qed.

Lemma yget_yset ws j s i : yget (yset ws j s) i = if Nat.eqb i j && (j <? length ws)%nat then s else yget ws i.
Proof.
  revert j i. induction ws as [|x t IH]; intros j i; cbn [yset length]; [rewrite Bool.andb_false_r; reflexivity|].
  destruct j, i; try reflexivity. apply IH.
Qed.

Lemma yget_yset_lt ws j s i : (j < length ws)%nat -> yget (yset ws j s) i = if Nat.eqb i j then s else yget ws i.
Proof. intros H. rewrite yget_yset, (proj2 (Nat.ltb_lt _ _) H), Bool.andb_true_r. reflexivity. Qed.

Lemma yset_length ws j s : length (yset ws j s) = length ws.
Proof. revert j. induction ws as [|x t IH]; intros [|j]; cbn; auto. Qed.

Lemma wroute_lt k h : (0 < k)%nat -> (wroute k h < k)%nat.
Proof. intros H. unfold wroute. apply Nat.mod_upper_bound. intros E. subst k. inversion H. Qed.

(* what reaches client connections is exactly the swarm worker's messages whose named connection
   (socket worker, connection id) is alive - each to that connection, in order, none twice *)
Lemma deliver_spec cs outs :
  deliver cs outs = map DOut (filter (fun o => match find_conn (wout_dest o) cs with Some _ => true | None => false end) outs).
Proof. reflexivity. Qed.

Lemma in_deliver cs outs m :
  In m (deliver cs outs) <-> exists o, m = DOut o /\ In o outs /\ find_conn (wout_dest o) cs <> None.
Proof.
  unfold deliver. rewrite in_map_iff. split; intros (o & H); exists o; rewrite filter_In in *.
  - destruct H as (<- & Hin & Hal). split; [reflexivity|]. split; [exact Hin|]. destruct (find_conn (wout_dest o) cs); discriminate.
  - destruct H as (-> & Hin & Hal). split; [reflexivity|]. split; [exact Hin|].
    destruct (find_conn (wout_dest o) cs); [reflexivity|contradiction].
Qed.

Lemma deliver_no_dead cs outs o : find_conn (wout_dest o) cs = None -> ~ In (DOut o) (deliver cs outs).
Proof. intros Hd (o' & [= <-] & _ & Hal)%in_deliver. contradiction. Qed.

(* The socket worker's clean-up record after an announce it forwards (connection.rs,
   handle_announce_request): the torrent is entered under the announced peer id and, on 'stopped',
   taken out again. *)
Definition record_announce (rq : wreq) (ann : list (N * N)) : list (N * N) :=
  let ann1 := aput N.eqb (q_hash rq) (q_pid rq) ann in
  if q_stopped rq then snd (aswap_remove N.eqb (q_hash rq) ann1) else ann1.

Lemma record_announce_nodup rq ann : NoDup (map fst ann) -> NoDup (map fst (record_announce rq ann)).
Proof. intros H. unfold record_announce. destruct (q_stopped rq); [apply aswap_remove_nodup|]; apply aput_nodup, H. Qed.

Lemma aget_record_announce rq ann h :
  NoDup (map fst ann) ->
  aget N.eqb h (record_announce rq ann)
  = if N.eqb h (q_hash rq) then (if q_stopped rq then None else Some (q_pid rq)) else aget N.eqb h ann.
Proof.
  intros H. unfold record_announce. destruct (q_stopped rq); [|apply aget_aput].
  rewrite aget_aswap_remove, aget_aremove, aget_aput by apply aput_nodup, H. destruct (N.eqb h (q_hash rq)); reflexivity.
Qed.

(* the socket worker's test for a second peer id passes a torrent not recorded yet, or recorded under
   the announced peer id *)
Lemma same_id_test (r : option N) pid :
  r = None \/ r = Some pid -> match r with Some pid' => negb (N.eqb pid' pid) | None => false end = false.
Proof. intros [->| ->]; [reflexivity|]. rewrite N.eqb_refl. reflexivity. Qed.

(* an announce that fails it: error 2, and the connection is torn down *)
Lemma wsys_step_refused cfg cut ae k y who c rq pid' y' msgs :
  find_conn who (y_conns y) = Some c ->
  aget N.eqb (q_hash rq) (sc_announced c) = Some pid' -> pid' <> q_pid rq ->
  wsys_step cfg cut ae k y who (CAnnounce rq) = Ok (y', msgs) ->
  exists ws', close_all k (y_workers y) (sc_v6 c) (sc_announced c) = Ok ws'
    /\ y' = mkWsys ws' (drop_conn who (y_conns y)) /\ msgs = [DErr (fst who) (snd who) 2].
Proof.
  intros Hc Ha Hne H. unfold wsys_step in H. rewrite Hc, Ha in H.
  destruct (N.eqb_spec pid' (q_pid rq)); [contradiction|]. cbn [negb] in H.
  apply obind_ok in H as (ws' & Hcl & [= <- <-]). eauto.
Qed.

(* an announce that passes it: the record is updated, the torrent's swarm worker runs the announce, its
   messages are delivered.  The routing model runs the swarm worker at clock 0 with offsets 0 0; what C17
   needs of that announce ([announce_entries]) holds for any *)
Lemma wsys_step_forwarded cfg cut ae k y who c rq y' msgs :
  find_conn who (y_conns y) = Some c ->
  (aget N.eqb (q_hash rq) (sc_announced c) = None \/ aget N.eqb (q_hash rq) (sc_announced c) = Some (q_pid rq)) ->
  wsys_step cfg cut ae k y who (CAnnounce rq) = Ok (y', msgs) ->
  exists s' outs, ws_announce cfg (yget (y_workers y) (wroute k (q_hash rq))) rq 0 0 0 = Ok (s', outs)
    /\ y' = mkWsys (yset (y_workers y) (wroute k (q_hash rq)) s')
                   (put_conn (mkSconn who (sc_v6 c) (record_announce rq (sc_announced c))) (y_conns y))
    /\ msgs = deliver (y_conns y') outs.
Proof.
  intros Hc Ha H. unfold wsys_step in H. rewrite Hc, (same_id_test _ _ Ha) in H.
  apply obind_ok in H as ([s' outs] & Hs' & [= <- <-]). exists s', outs.
  (* [record_announce] is the model's ann1 / ann2, by unfolding *)
  split; [exact Hs'|]. split; reflexivity.
Qed.

Theorem step_delivers_to_named_live_connections cfg cut ae k y who a y' msgs :
  wsys_step cfg cut ae k y who a = Ok (y', msgs) ->
  forall m, In m msgs -> find_conn (dest m) (y_conns y) <> None \/ find_conn (dest m) (y_conns y') <> None.
Proof.
  unfold wsys_step. intros H.
  (* a step answers nothing, or the sender (who is then connected), or hands on what [deliver] let through *)
  set (P := fun y' msgs => forall m, In m msgs -> find_conn (dest m) (y_conns y) <> None \/ find_conn (dest m) (y_conns y') <> None).
  change (P y' msgs).
  assert (Hnil : forall y0, P y0 []) by (intros y0 m []).
  destruct (find_conn who (y_conns y)) as [c|] eqn:Ec; [|destruct a; injection H as <- <-; apply Hnil].
  assert (Hwho : forall y0 m0, dest m0 = (fst who, snd who) -> P y0 [m0])
    by (intros y0 m0 E m [<-|[]]; left; rewrite E, <- surjective_pairing, Ec; discriminate).
  destruct a as [v6|rq|hs| |].
  - injection H as <- <-. apply Hnil.
  - destruct (match aget _ _ (sc_announced c) with Some _ => _ | None => _ end).
    + apply obind_ok in H as (ws' & _ & [= <- <-]). apply Hwho. reflexivity.
    + apply obind_ok in H as ([s' outs] & _ & [= <- <-]).
      intros m (o & -> & _ & Hal)%in_deliver. right. exact Hal.
  - destruct hs as [hs|]; [destruct (if cut then firstn (wc_max_scrape cfg) hs else hs) as [|h0 t]|].
    + injection H as <- <-. destruct ae; [apply Hwho; reflexivity|apply Hnil].
    + apply obind_ok in H as (files & _ & [= <- <-]). apply Hwho. reflexivity.
    + injection H as <- <-. apply Hwho. reflexivity.
  - injection H as <- <-. apply Hwho. reflexivity.
  - apply obind_ok in H as (ws' & _ & [= <- <-]). apply Hnil.
Qed.
