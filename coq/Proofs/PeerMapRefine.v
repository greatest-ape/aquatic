(* The concrete peer map refines the reference collection: what an announce does to it, for
   either representation.  Parametric in the inline capacity [cap] and in [shrink]. *)
From Aquatic Require Import RefTracker WsSwarm PeerMapFacts Selection.

Lemma ref_counts_perm l l' : Permutation l l' -> ref_counts l = ref_counts l'.
Proof.
  intros H; unfold ref_counts. rewrite (count_seeders_perm _ _ H), (Permutation_length H). reflexivity.
Qed.

Section Refine.
  Context {cap : nat} {shrink : bool}.

  (* what C02 demands of a reply's peer list, relative to the other members [others]; [take - 1]
     because the heap map hands out 2 * (take / 2) entries, one short of an odd [take] *)
  Definition selection_ok (key : N) (others : entries) (take : nat) (peers : list N) : Prop :=
    NoDup peers /\ incl peers (keys others) /\ ~ In key peers /\ length peers <= take
    /\ (length others <= take -> Permutation peers (keys others))
    /\ (take < length others -> take - 1 <= length peers).

  Lemma selection_ok_perm key o o' take peers :
    Permutation o o' -> selection_ok key o take peers -> selection_ok key o' take peers.
  Proof.
    intros Hp (H1 & H2 & H3 & H4 & H5 & H6).
    pose proof (keys_perm _ _ Hp) as Hk. pose proof (Permutation_length Hp) as Hl.
    unfold selection_ok. repeat apply conj; try assumption.
    - intros x Hx. apply (Permutation_in _ Hk), H2, Hx.
    - intros Hle. rewrite <- Hk. apply H5. lia.
    - intros Hlt. apply H6. lia.
  Qed.

  (* PeerMap::announce in the steps of the source: take the announcing key out
     (SmallPeerMap::remove, LargePeerMap::remove_peer), count and select among the rest, change
     representation if due (to_large / try_shrink), put the key back unless the peer stopped (insert).
     Model/PeerMap.v [pm_announce] has these steps inline; [pm_announce_eq] ties this
     restatement to it: whoever edits one edits the other, or that proof breaks. *)
  Definition pm_remove (pm : pmap) (key : N) : outcome (pmap * option peer) :=
    match pm with
    | Small l => let '(removed, l1) := small_remove key l in Ok (Small l1, removed)
    | Large l ns =>
        let '(removed, l1) := im_swap_remove key l in
        let! ns1 := match removed with
                    | Some p => if p_seeder p then checked_pred ns else Ok ns
                    | None => Ok ns
                    end in
        Ok (Large l1 ns1, removed)
    end.

  Definition pm_select (pm : pmap) (take o1 o2 : nat) : outcome (list N) :=
    match pm with
    | Small l => Ok (extract_small take l)
    | Large l _ => extract_large take l o1 o2
    end.

  Definition pm_convert (stopped : bool) (pm : pmap) : pmap :=
    match pm with
    | Small l => if (length l =? cap) && negb stopped then Large l (count_seeders l) else pm
    | Large l _ => if stopped && (length l <=? cap) then Small l else pm
    end.

  Definition pm_take (pm : pmap) (key : N) (stopped : bool) (take o1 o2 : nat)
    : outcome (pmap * areply * option peer) :=
    let! (pm0, removed) := pm_remove pm key in
    let! (s, le) := pm_counts pm0 in
    let! peers := pm_select pm0 take o1 o2 in
    Ok (pm_convert stopped pm0, mkReply s le peers, removed).

  Definition pm_put (pm : pmap) (key : N) (p : peer) : outcome pmap :=
    match pm with
    | Small l => if length l <? cap then Ok (Small (l ++ [(key, p)])) else Panic
    | Large l ns => Ok (Large (im_insert key p l) (if p_seeder p then S ns else ns))
    end.

  Lemma pm_announce_eq pm key st pid until take o1 o2 :
    pm_announce cap pm key st pid until take o1 o2
    = let! (pm1, rep, removed) := pm_take pm key (is_stopped st) take o1 o2 in
      if is_stopped st then Ok (pm1, rep, removed)
      else let! pm2 := pm_put pm1 key (mkPeer pid (is_seeding st) until) in Ok (pm2, rep, removed).
  Proof.
    unfold pm_announce. set (take_inline := match pm with Small l => _ | Large l ns => _ end).
    assert (E : take_inline = pm_take pm key (is_stopped st) take o1 o2).
    { unfold take_inline, pm_take, pm_remove. destruct pm as [l|l ns].
      - destruct (small_remove key l) as [removed l1]. cbn [obind pm_counts].
        destruct (checked_sub _ _); reflexivity.
      - destruct (im_swap_remove key l) as [removed l1].
        destruct (match removed with Some _ => _ | None => _ end) as [ns1|]; [|reflexivity]. cbn [obind pm_counts].
        destruct (checked_sub _ _); [|reflexivity]. cbn [obind pm_select].
        reflexivity. }
    rewrite E. destruct (pm_take _ _ _ _ _ _) as [[[pm1 rep] removed]|]; [|reflexivity].
    destruct st; cbn [is_stopped]; [| |reflexivity].
    (* Seeding, Leeching: the model's own insertion is [pm_put], representation by representation *)
    all: destruct pm1 as [l|l ns]; cbn [pm_put obind]; [destruct (length l <? cap)|]; reflexivity.
  Qed.

  (* [pmap_inv] for a map still owed entries: it holds once [ds] absent keys are put into an
     inline map, [dl] into a heap map.  The heap bound exists only where cleaning shrinks (udp);
     http leaves a heap map on the heap however few entries expiry leaves in it.
     [pmap_short 0 0] is [pmap_inv] by computation.  Through an announce: the removal leaves
     [pmap_short 0 1], the change of representation [pmap_short d d] with d = 1 iff the key
     goes back in, and [pm_put] takes [pmap_short 1 1] to [pmap_inv]. *)
  Definition pmap_short (ds dl : nat) (pm : pmap) : Prop :=
    NoDup (keys (pm_entries pm)) /\
    match pm with
    | Small l => ds + length l <= cap
    | Large l ns => ns = count_seeders l /\ (shrink = true -> cap < dl + length l)
    end.

  Lemma pm_counts_exact ds dl pm : pmap_short ds dl pm -> pm_counts pm = Ok (ref_counts (pm_entries pm)).
  Proof.
    intros [_ H]. unfold ref_counts. destruct pm as [l|l ns]; cbn [pm_counts pm_entries].
    - now rewrite checked_sub_ok by apply count_seeders_le.
    - destruct H as [-> _]. now rewrite checked_sub_ok by apply count_seeders_le.
  Qed.

  Lemma pm_remove_spec pm key :
    pmap_inv cap shrink pm ->
    exists pm0, pm_remove pm key = Ok (pm0, find_key key (pm_entries pm))
      /\ Permutation (pm_entries pm0) (ref_remove key (pm_entries pm)) /\ pmap_short 0 1 pm0.
  Proof.
    intros [Hnd Hrep].
    (* what AssocFacts knows of the rest: [ref_remove] is [aremove] *)
    pose proof (aremove_nodup key _ Hnd) as Hnd1. pose proof (aremove_length key _ Hnd) as Hlen.
    change (aremove key (pm_entries pm)) with (ref_remove key (pm_entries pm)) in Hnd1, Hlen.
    destruct pm as [l|l ns]; cbn [pm_entries pm_remove] in *.
    - (* inline map: the removal is exact *)
      rewrite (small_remove_spec key l Hnd). eexists. split; [reflexivity|]. split; [apply Permutation_refl|].
      split; [exact Hnd1|]. lia.
    - (* heap map: swap_remove permutes the rest; the stored seeder count stays exact *)
      destruct Hrep as [-> Hshr]. destruct (swap_remove_spec key l Hnd) as [Hf Hp].
      rewrite (surjective_pairing (im_swap_remove key l)), Hf, (remove_peer_count key l Hnd). cbn [obind].
      eexists. split; [reflexivity|]. cbn [pm_entries]. split; [exact Hp|].
      split; [rewrite (keys_perm _ _ Hp); exact Hnd1|]. split; [symmetry; apply count_seeders_perm, Hp|].
      intros Hs. specialize (Hshr Hs). apply Permutation_length in Hp. destruct (aget N.eqb key l); lia.
  Qed.

  Lemma extract_selection_ok key l take r n :
    ~ In key (keys l) -> extract_ok l take r n -> take - 1 <= n -> selection_ok key l take r.
  Proof.
    intros Hni (S1 & S2 & S3 & S4 & S5) Hn. unfold selection_ok. repeat apply conj; try assumption.
    - intros Hin; apply Hni, S2, Hin.
    - intros Hle; rewrite (S4 Hle); apply Permutation_refl.
    - intros Hlt; rewrite (S5 Hlt); exact Hn.
  Qed.

  Lemma pm_select_spec pm key take o1 o2 :
    NoDup (keys (pm_entries pm)) -> ~ In key (keys (pm_entries pm)) ->
    exists peers, pm_select pm take o1 o2 = Ok peers /\ selection_ok key (pm_entries pm) take peers.
  Proof.
    intros Hnd Hni. destruct pm as [l|l ns]; cbn [pm_select pm_entries] in *.
    - eexists. split; [reflexivity|].
      apply (extract_selection_ok key l take _ take Hni (extract_small_spec take l Hnd)). lia.
    - destruct (extract_large_spec take l o1 o2 Hnd) as (peers & -> & Hsel). eexists. split; [reflexivity|].
      apply (extract_selection_ok key l take peers _ Hni Hsel).
      pose proof (Nat.div_mod take 2 ltac:(lia)). pose proof (Nat.mod_upper_bound take 2 ltac:(lia)). lia.
  Qed.

  Lemma pm_convert_spec (stopped : bool) pm :
    pmap_short 0 1 pm ->
    let d := if stopped then 0 else 1 in
    pm_entries (pm_convert stopped pm) = pm_entries pm /\ pmap_short d d (pm_convert stopped pm).
  Proof.
    intros [Hnd H] d.
    assert (E : pm_entries (pm_convert stopped pm) = pm_entries pm)
      by (destruct pm; cbn [pm_convert]; destruct (_ && _); reflexivity).
    split; [exact E|]. split; [rewrite E; exact Hnd|]. subst d.
    destruct pm as [l|l ns]; cbn [pm_convert]; cbn [Nat.add] in H.
    - (* to_large exactly when the inline map is full and the key goes back in *)
      destruct (Nat.eqb_spec (length l) cap), stopped; cbn [andb negb]; lia.
    - (* try_shrink only when nothing goes back in *)
      destruct H as [-> Hshr]. destruct stopped; cbn [andb]; [|split; [reflexivity|exact Hshr]].
      destruct (Nat.leb_spec (length l) cap) as [Hle|Hgt]; [exact Hle|]. split; [reflexivity|intros _; exact Hgt].
  Qed.

  Lemma pm_take_spec pm r key (stopped : bool) take o1 o2 :
    pmap_inv cap shrink pm -> pm_refines pm r ->
    let others := ref_remove key r in
    let d := if stopped then 0 else 1 in
    exists pm1 rep,
      pm_take pm key stopped take o1 o2 = Ok (pm1, rep, find_key key (pm_entries pm))
      /\ Permutation (pm_entries pm1) others
      /\ pmap_short d d pm1
      /\ (r_seeders rep, r_leechers rep) = ref_counts others
      /\ selection_ok key others take (r_peers rep).
  Proof.
    intros Hinv Href others d. unfold pm_take.
    destruct (pm_remove_spec pm key Hinv) as (pm0 & -> & Hp0 & Hshort). cbn [obind].
    assert (Hp : Permutation (pm_entries pm0) others) by apply (Permutation_trans Hp0), Permutation_filter, Href.
    rewrite (pm_counts_exact 0 1 pm0 Hshort). cbn [obind ref_counts].
    assert (Hni : ~ In key (keys (pm_entries pm0))) by (rewrite (keys_perm _ _ Hp); apply (aremove_not_in key)).
    destruct (pm_select_spec pm0 key take o1 o2 (proj1 Hshort) Hni) as (peers & -> & Hsel). cbn [obind].
    destruct (pm_convert_spec stopped pm0 Hshort) as [E Hshort1].
    do 2 eexists. split; [reflexivity|]. rewrite E. cbn [r_seeders r_leechers r_peers].
    split; [exact Hp|]. split; [exact Hshort1|].
    split; [exact (ref_counts_perm _ _ Hp)|exact (selection_ok_perm _ _ _ _ _ Hp Hsel)].
  Qed.

  (* {Small,Large}PeerMap::insert of an absent key into a map with room for it *)
  Lemma pm_put_spec pm key p :
    pmap_short 1 1 pm -> ~ In key (keys (pm_entries pm)) ->
    exists pm2, pm_put pm key p = Ok pm2 /\ pmap_inv cap shrink pm2 /\ pm_entries pm2 = pm_entries pm ++ [(key, p)].
  Proof.
    intros [Hnd H] Hni.
    assert (Hnd2 : NoDup (keys (pm_entries pm ++ [(key, p)]))) by (rewrite keys_app; apply NoDup_snoc; assumption).
    destruct pm as [l|l ns]; cbn [pm_put pm_entries] in *.
    - destruct (Nat.ltb_spec (length l) cap); [|lia]. eexists. split; [reflexivity|]. split; [|reflexivity].
      split; [exact Hnd2|]. rewrite app_length. cbn. lia.
    - rewrite im_insert_aput, (aput_absent _ _ _ Hni). destruct H as [-> Hlen].
      eexists. split; [reflexivity|]. split; [|reflexivity]. split; [exact Hnd2|]. split.
      + rewrite count_seeders_app, (count_seeders_cons _ []). cbn [snd]. destruct (p_seeder p); cbn; lia.
      + intros Hs. rewrite app_length. cbn. specialize (Hlen Hs). lia.
  Qed.

  (* what an announce does, for any reference collection [r] with the map's entries ([r] may be
     [pm_entries pm] itself): no panic, the invariant, and the reference's result *)
  Theorem pm_announce_refines pm r key st pid until take o1 o2 :
    pmap_inv cap shrink pm -> pm_refines pm r ->
    exists pm' rep,
      pm_announce cap pm key st pid until take o1 o2 = Ok (pm', rep, find_key key (pm_entries pm))
      /\ pmap_inv cap shrink pm'
      /\ pm_refines pm' (fst (ref_announce r key st pid until))
      /\ (r_seeders rep, r_leechers rep) = snd (ref_announce r key st pid until)
      /\ selection_ok key (ref_remove key r) take (r_peers rep).
  Proof.
    intros Hinv Href. rewrite pm_announce_eq. unfold ref_announce. cbn [fst snd].
    destruct (pm_take_spec pm r key (is_stopped st) take o1 o2 Hinv Href) as (pm1 & rep & -> & Hp & Hshort & Hrest).
    cbn [obind]. destruct (is_stopped st).
    - (* [Hshort : pmap_short 0 0 pm1] is the invariant *)
      exists pm1, rep. split; [reflexivity|]. split; [exact Hshort|]. split; [exact Hp|exact Hrest].
    - destruct (pm_put_spec pm1 key (mkPeer pid (is_seeding st) until) Hshort) as (pm2 & -> & Hinv2 & E).
      { rewrite (keys_perm _ _ Hp). apply (aremove_not_in key). }
      exists pm2, rep. split; [reflexivity|]. split; [exact Hinv2|]. split; [|exact Hrest].
      unfold pm_refines. rewrite E. apply Permutation_app_tail, Hp.
  Qed.

  (* the same read backwards, from a result in hand and against the map's own entries *)
  Corollary pm_announce_inv pm key st pid until take o1 o2 pm' rep removed :
    pmap_inv cap shrink pm ->
    pm_announce cap pm key st pid until take o1 o2 = Ok (pm', rep, removed) ->
    let l := pm_entries pm in
    removed = find_key key l /\ pmap_inv cap shrink pm'
    /\ pm_refines pm' (fst (ref_announce l key st pid until))
    /\ (r_seeders rep, r_leechers rep) = ref_counts (ref_remove key l)
    /\ selection_ok key (ref_remove key l) take (r_peers rep).
  Proof.
    intros Hinv Ha l.
    destruct (pm_announce_refines pm l key st pid until take o1 o2 Hinv (Permutation_refl _)) as (pm2 & rep2 & Ha2 & Hrest).
    rewrite Ha in Ha2. injection Ha2 as -> -> ->. split; [reflexivity|exact Hrest].
  Qed.
End Refine.

(* the lemmas read [cap] and [shrink] off their hypotheses; the definitions take them explicitly *)
Arguments pm_convert : clear implicits.
Arguments pm_take : clear implicits.
Arguments pm_put : clear implicits.
Arguments pmap_short : clear implicits.
