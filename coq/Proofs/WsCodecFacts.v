(* C15: identifier strings are exact; every incoming message survives the JSON tree mapping. *)
From Coq Require Import String.
From Aquatic Require Import ListFacts WsCodec.
Local Open Scope N_scope.

Lemma take_bytes_spec n s bs rest :
  take_bytes n s = Some (bs, rest) <-> s = bs ++ rest /\ length bs = n /\ Forall (fun c => c <= 255) bs.
Proof.
  split.
  - revert s bs rest. induction n as [|n IH]; intros s bs rest; cbn [take_bytes].
    + intros [= <- <-]. auto.
    + destruct s as [|c t]; [discriminate|].
      destruct (N.ltb_spec 255 c) as [|Hc]; [discriminate|].
      destruct (take_bytes n t) as [[bs' r]|] eqn:E; [|discriminate].
      intros [= <- <-]. destruct (IH _ _ _ E) as (-> & <- & Hb). auto.
  - intros (-> & <- & Hb). induction Hb as [|b t Hb _ IH]; cbn [length app take_bytes]; [reflexivity|].
    destruct (N.ltb_spec 255 b); [lia|]. rewrite IH. reflexivity.
Qed.

Lemma dec20_exact s bs :
  dec20 s = Some bs <-> length s = 20%nat /\ Forall (fun c => c <= 255) s /\ bs = s.
Proof.
  apply (whole_input (take_bytes 20) (fun pre bs => length pre = 20%nat /\ Forall (fun c => c <= 255) pre /\ bs = pre)).
  intros s' bs' rest. rewrite take_bytes_spec. split.
  - intros (-> & Hl & Hb). exists bs'. auto.
  - intros (pre & -> & Hl & Hb & ->). auto.
Qed.

Definition id_ok (b : list N) : Prop := length b = 20%nat /\ Forall (fun c => c <= 255) b.

Definition offer_ok (o : woffer) : Prop := id_ok (wo_id o).

Definition oid_ok (o : option (list N)) : Prop := match o with Some b => id_ok b | None => True end.
Definition onum_ok (o : option N) : Prop := match o with Some n => n <= usize_max | None => True end.

Definition announce_ok (a : wannounce) : Prop :=
  id_ok (wa_info_hash a) /\ id_ok (wa_peer_id a) /\ onum_ok (wa_left a) /\ onum_ok (wa_numwant a)
  /\ match wa_offers a with Some os => Forall offer_ok os | None => True end
  /\ oid_ok (wa_to_peer_id a) /\ oid_ok (wa_offer_id a).

Definition hashes_ok (h : option whashes) : Prop :=
  match h with
  | Some (WSingle x) => id_ok x
  | Some (WMultiple xs) => Forall id_ok xs
  | None => True
  end.

(* the two combinators of the derive shape: an Option field and a sequence *)
Lemma opt_field_json {A} (P : A -> Prop) (f : jv -> option A) (g : A -> jv) :
  (forall a, P a -> g a <> JNull /\ f (g a) = Some a) ->
  forall o, match o with Some a => P a | None => True end -> opt_field f (Some (opt_json g o)) = Some o.
Proof.
  intros H [a|] Ho; cbn [opt_json opt_field]; [|reflexivity]. destruct (H a Ho) as [Hn E].
  rewrite E. destruct (g a); [congruence|reflexivity..].
Qed.

Lemma all_some_map {A B} (f : A -> option B) (g : B -> A) l :
  Forall (fun x => f (g x) = Some x) l -> all_some f (map g l) = Some l.
Proof. induction 1 as [|x t Hx _ IH]; cbn [map all_some]; [reflexivity|]. rewrite Hx, IH. reflexivity. Qed.

(* each field type reads back what it wrote, and never writes null *)
Lemma num_field n : n <= usize_max -> JNum n <> JNull /\ get_num (JNum n) = Some n.
Proof. intros H. split; [discriminate|]. cbn. destruct (N.leb_spec n usize_max); [reflexivity|lia]. Qed.

Lemma id_field b : id_ok b -> jid b <> JNull /\ get_id (jid b) = Some b.
Proof. intros [Hl Hb]. split; [discriminate|]. apply dec20_exact. auto. Qed.

Lemma get_offer_json o : offer_ok o -> get_offer (offer_json o) = Some o.
Proof.
  intros H. unfold get_offer, offer_json. cbn [jget String.eqb Ascii.eqb Bool.eqb].
  change (get_rtc "offer" _) with (Some (wo_sdp o)). rewrite (proj2 (id_field _ H)). destruct o; reflexivity.
Qed.

Lemma offers_field os :
  Forall offer_ok os -> JArr (map offer_json os) <> JNull /\ get_offers (JArr (map offer_json os)) = Some os.
Proof. intros H. split; [discriminate|]. apply all_some_map, (Forall_impl _ get_offer_json H). Qed.

Lemma hashes_field h :
  match h with WSingle x => id_ok x | WMultiple xs => Forall id_ok xs end ->
  hashes_json h <> JNull /\ get_hashes (hashes_json h) = Some h.
Proof.
  intros H. split; [destruct h; discriminate|]. unfold get_hashes. destruct h as [x|xs]; cbn [hashes_json].
  - rewrite (proj2 (id_field x H)). reflexivity.
  - cbn [get_id]. rewrite all_some_map; [reflexivity|].
    revert H. apply Forall_impl. intros x Hx. apply id_field, Hx.
Qed.

(* [of_announce] finds every key where [announce_json] wrote it, with or without an event entry
   in between; the event and the answer read back by computation *)
Lemma of_announce_json a :
  of_announce (announce_json a)
  = match get_id (jid (wa_info_hash a)), get_id (jid (wa_peer_id a)),
          opt_field get_num (Some (opt_json JNum (wa_left a))),
          opt_field get_offers (Some (opt_json (fun os => JArr (map offer_json os)) (wa_offers a))),
          opt_field get_num (Some (opt_json JNum (wa_numwant a))),
          opt_field get_id (Some (opt_json jid (wa_to_peer_id a))),
          opt_field get_id (Some (opt_json jid (wa_offer_id a))) with
    | Some ih, Some pid, Some l, Some o, Some n, Some t, Some oi =>
        Some (mkWann ih pid l (wa_event a) o n (wa_answer a) t oi)
    | _, _, _, _, _, _, _ => None
    end.
Proof. destruct a as [ih pid lft [[]|] offers nw [s|] topid oid]; reflexivity. Qed.
