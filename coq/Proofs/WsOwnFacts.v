(* C17: every peer entry in every swarm worker belongs to a live connection whose clean-up record
   names it; hence a closed (or refused) connection leaves no peer entry behind - for every
   history, every number of socket and swarm workers (sequential semantics). *)
From Aquatic Require Import AssocFacts WsFacts WsRouting WsRoutingFacts WsCloseFacts.

Definition owner (p : wpeer) : N * N := (w_consumer p, w_conn p).

Definition owner_of (t : wtorrent) (pid : N) : option (N * N) := option_map owner (aget N.eqb pid (wt_peers t)).

Lemma expect_only_owner t t' pid : expect_only t t' -> owner_of t' pid = owner_of t pid.
Proof.
  intros [|k p e E]; [reflexivity|]. unfold owner_of. cbn [wt_peers]. rewrite aget_aput.
  destruct (N.eqb_spec pid k) as [->|]; [rewrite E|]; reflexivity.
Qed.

(* an entry keeps its creator; a new one belongs to the announcing connection *)
Lemma upsert_owner t rq until st t' pid :
  wt_ok t -> ws_upsert t rq until st = Ok t' ->
  owner_of t' pid = if N.eqb pid (q_pid rq)
                    then match st with
                         | WStopped => None
                         | _ => Some (match owner_of t pid with Some o => o | None => (q_consumer rq, q_conn rq) end)
                         end
                    else owner_of t pid.
Proof.
  intros Hok Hu. destruct (ws_upsert_spec t rq until st Hok) as (t2 & Hu2 & _ & Hget).
  rewrite Hu in Hu2. injection Hu2 as <-. unfold owner_of. rewrite Hget.
  destruct (N.eqb_spec pid (q_pid rq)) as [->|]; [|reflexivity].
  unfold upsert_entry, upsert_record. destruct st, (aget N.eqb (q_pid rq) (wt_peers t)); reflexivity.
Qed.

(* the whole announce on one swarm worker: an entry afterwards was there before, under the same owner
   (and is not one the announcer just stopped), or is the announcer's own, newly created *)
Theorem announce_entries cfg s rq now o1 o2 s' outs :
  wstate_ok s -> ws_announce cfg s rq now o1 o2 = Ok (s', outs) ->
  forall f h pid p', wentry s' f h pid p' ->
    (exists p, wentry s f h pid p /\ owner p = owner p'
               /\ ~ (q_stopped rq = true /\ f = q_v6 rq /\ h = q_hash rq /\ pid = q_pid rq /\ w_conn p' = q_conn rq))
    \/ (f = q_v6 rq /\ h = q_hash rq /\ pid = q_pid rq /\ owner p' = (q_consumer rq, q_conn rq) /\ q_stopped rq = false).
Proof.
  intros Hs Ha f h pid p' He.
  destruct (ws_announce_spec false cfg s rq now o1 o2 Hs) as (t3 & outs' & E & Ht & _ & Hcase).
  unfold ws_announce in Ha. rewrite E in Ha. injection Ha as <- _.
  apply wentry_store in He. destruct (Bool.eqb f (q_v6 rq) && N.eqb h (q_hash rq)) eqn:Eslot.
  2:{ left. exists p'. split; [exact He|]. split; [reflexivity|]. intros (_ & -> & -> & _).
      rewrite Bool.eqb_reflx, N.eqb_refl in Eslot. discriminate. }
  apply andb_prop in Eslot as [->%Bool.eqb_prop ->%N.eqb_eq].
  destruct Hcase as [[Hf ->]|(_ & t1 & t2 & Hu & H12 & H23)].
  - (* ignored: the stored entry for this peer id has another connection id *)
    left. exists p'. split; [apply wentry_wm_get, He|]. split; [reflexivity|]. intros (_ & _ & _ & -> & Hc).
    unfold ws_foreign, lenient_foreign in Hf. rewrite He, Hc, N.eqb_refl in Hf. discriminate.
  - assert (Ho : owner_of t3 pid = Some (owner p')) by (unfold owner_of; rewrite He; reflexivity).
    rewrite (expect_only_owner _ _ _ H23), (expect_only_owner _ _ _ H12), (upsert_owner _ _ _ _ _ _ Ht Hu), wstatus_of_match in Ho.
    unfold owner_of in Ho. set (t := wm_get _ _) in *.
    destruct (N.eqb_spec pid (q_pid rq)) as [->|Hpid].
    + destruct (q_stopped rq); [discriminate|].
      destruct (aget N.eqb (q_pid rq) (wt_peers t)) as [p|] eqn:Ep; cbn [option_map] in Ho.
      * left. exists p. split; [apply wentry_wm_get, Ep|]. split; [congruence|]. intros [[=] _].
      * right. repeat split; congruence.
    + destruct (aget N.eqb pid (wt_peers t)) as [p|] eqn:Ep; [|discriminate]. cbn [option_map] in Ho.
      left. exists p. split; [apply wentry_wm_get, Ep|]. split; [congruence|]. intros (_ & _ & _ & Hp & _). exact (Hpid Hp).
Qed.

Definition Own (k : nat) (y : wsys) : Prop :=
  length (y_workers y) = k /\ all_ok k (y_workers y)
  /\ (forall key c, find_conn key (y_conns y) = Some c -> NoDup (map fst (sc_announced c)))
  /\ (forall j f h t pid p, (j < k)%nat ->
        aget N.eqb h (wfam (yget (y_workers y) j) f) = Some t -> aget N.eqb pid (wt_peers t) = Some p ->
        exists c, find_conn (owner p) (y_conns y) = Some c /\ sc_v6 c = f
                  /\ aget N.eqb h (sc_announced c) = Some pid /\ wroute k h = j).

(* what the socket workers guarantee about an action: a connection id is not opened twice, and a
   request carries the identity and address family of the connection it arrived on *)
Definition action_wf (y : wsys) (who : N * N) (a : caction) : Prop :=
  match a with
  | COpen _ => find_conn who (y_conns y) = None
  | CAnnounce rq => (q_consumer rq, q_conn rq) = who /\ forall c, find_conn who (y_conns y) = Some c -> q_v6 rq = sc_v6 c
  | _ => True
  end.

Definition recorded (cs : list sconn) (o : N * N) (f : bool) (h pid : N) : Prop :=
  exists c, find_conn o cs = Some c /\ sc_v6 c = f /\ aget N.eqb h (sc_announced c) = Some pid.

Lemma recorded_put who v6 ann cs o f h pid :
  recorded (put_conn (mkSconn who v6 ann) cs) o f h pid
  <-> if pair_eqb who o then v6 = f /\ aget N.eqb h ann = Some pid else recorded cs o f h pid.
Proof.
  unfold recorded. rewrite find_conn_put. cbn [sc_key]. destruct (pair_eqb who o); [|reflexivity].
  split; [intros (c0 & [= <-] & H); exact H|eauto].
Qed.

Lemma recorded_drop who cs o f h pid :
  recorded (drop_conn who cs) o f h pid <-> if pair_eqb who o then False else recorded cs o f h pid.
Proof.
  unfold recorded. rewrite find_conn_drop. destruct (pair_eqb who o); [|reflexivity].
  split; [intros (c0 & [=] & _)|contradiction].
Qed.

(* [Own] with its last clause read over entries *)
Lemma Own_iff k y : Own k y <->
  length (y_workers y) = k /\ all_ok k (y_workers y)
  /\ (forall key c, find_conn key (y_conns y) = Some c -> NoDup (map fst (sc_announced c)))
  /\ (forall j f h pid p, (j < k)%nat -> wentry (yget (y_workers y) j) f h pid p ->
        recorded (y_conns y) (owner p) f h pid /\ wroute k h = j).
Proof.
  unfold Own. split; intros (Hl & Hok & Hnd & H); repeat (split; [assumption|]).
  - intros j f h pid p Hj (t & H1 & H2). destruct (H j f h t pid p Hj H1 H2) as (c & A & B & C & D).
    split; [exists c; auto|exact D].
  - intros j f h t pid p Hj H1 H2. destruct (H j f h pid p Hj (ex_intro _ t (conj H1 H2))) as [(c & A & B & C) D].
    exists c. auto.
Qed.

Lemma unconnected_owns_nothing k y who : Own k y -> find_conn who (y_conns y) = None ->
  forall j f h t pid p, (j < k)%nat ->
    aget N.eqb h (wfam (yget (y_workers y) j) f) = Some t -> aget N.eqb pid (wt_peers t) = Some p -> owner p <> who.
Proof.
  intros (_ & _ & _ & Hown) Hn j f h t pid p Hj H1 H2 E.
  destruct (Hown j f h t pid p Hj H1 H2) as (c & Hf & _). rewrite E, Hn in Hf. discriminate.
Qed.

Lemma Own_open k y who v6 :
  Own k y -> find_conn who (y_conns y) = None -> Own k (mkWsys (y_workers y) (put_conn (mkSconn who v6 []) (y_conns y))).
Proof.
  intros (Hlen & Hok & Hnd & Hown)%Own_iff Hc.
  apply Own_iff. cbn [y_workers y_conns]. split; [exact Hlen|]. split; [exact Hok|]. split.
  - intros key c. rewrite find_conn_put. cbn [sc_key]. destruct (pair_eqb who key); [intros [= <-]; constructor|apply Hnd].
  - intros j f h pid p Hj He. destruct (Hown j f h pid p Hj He) as [Hr Hro]. split; [|exact Hro].
    apply recorded_put. destruct (pair_eqb_spec who (owner p)) as [Eo|]; [|exact Hr].
    destruct Hr as (c0 & Hf & _). rewrite <- Eo, Hc in Hf. discriminate.
Qed.

(* closing (or refusing) connection [who]: its recorded entries go, nothing else changes owner *)
Lemma Own_close k y who c ws' : (0 < k)%nat ->
  Own k y -> find_conn who (y_conns y) = Some c ->
  close_all k (y_workers y) (sc_v6 c) (sc_announced c) = Ok ws' ->
  Own k (mkWsys ws' (drop_conn who (y_conns y))).
Proof.
  intros Hk HO Hc Hcl. apply Own_iff in HO as (Hlen & Hok & Hnd & Hown).
  destruct (close_all_spec k (sc_v6 c) Hk (sc_announced c) _ Hlen Hok) as (ws2 & E & Hl' & Hok' & Hent & _).
  rewrite Hcl in E. injection E as <-.
  apply Own_iff. cbn [y_workers y_conns]. split; [exact Hl'|]. split; [exact Hok'|]. split.
  - intros key c0. rewrite find_conn_drop. destruct (pair_eqb who key); [discriminate|apply Hnd].
  - intros j f h pid p Hj He. destruct (Hent _ _ _ _ _ He) as [He0 Hn]. destruct (Hown j f h pid p Hj He0) as [Hr Hro].
    split; [|exact Hro]. apply recorded_drop. destruct (pair_eqb_spec who (owner p)) as [Eo|]; [|exact Hr].
    (* [who]'s record named all its entries: this one would be gone *)
    destruct Hr as (c0 & Hf & Hv & Ha). rewrite <- Eo, Hc in Hf. injection Hf as <-.
    apply Hn. split; [auto|]. split; [apply aget_some_in, Ha|auto].
Qed.

(* an announce the socket worker forwards: the swarm worker stores or removes the announcer's
   entry, the socket worker records or erases (torrent, peer id) *)
Lemma Own_announce cfg cut ae k y who c rq y' msgs : (0 < k)%nat ->
  Own k y -> find_conn who (y_conns y) = Some c -> action_wf y who (CAnnounce rq) ->
  (aget N.eqb (q_hash rq) (sc_announced c) = None \/ aget N.eqb (q_hash rq) (sc_announced c) = Some (q_pid rq)) ->
  wsys_step cfg cut ae k y who (CAnnounce rq) = Ok (y', msgs) -> Own k y'.
Proof.
  intros Hk HO Hc [Hid Hfam] Hsame H. specialize (Hfam c Hc).
  destruct (wsys_step_forwarded _ _ _ _ _ _ _ _ _ _ Hc Hsame H) as (s' & outs & Ha & -> & _).
  apply Own_iff in HO as (Hlen & Hok & Hnd & Hown).
  set (j := wroute k (q_hash rq)) in *. assert (Hj : (j < k)%nat) by apply wroute_lt, Hk.
  set (c' := mkSconn who (sc_v6 c) (record_announce rq (sc_announced c))).
  pose proof (fun h => aget_record_announce rq _ h (Hnd _ _ Hc)) as Hrec.
  (* an entry recorded before stays recorded, unless the announce just stopped it *)
  assert (Hkeep : forall o f h pid, recorded (y_conns y) o f h pid ->
            ~ (q_stopped rq = true /\ f = q_v6 rq /\ h = q_hash rq /\ pid = q_pid rq /\ snd o = q_conn rq) ->
            recorded (put_conn c' (y_conns y)) o f h pid).
  { intros o f h pid Hr Hns. apply recorded_put.
    destruct (pair_eqb_spec who o) as [<-|]; [|exact Hr].
    destruct Hr as (c0 & Hf & Hv & Hrd). rewrite Hc in Hf. injection Hf as <-. split; [exact Hv|].
    rewrite Hrec. destruct (N.eqb_spec h (q_hash rq)) as [->|]; [|exact Hrd].
    (* [who]'s record names the announced peer id only *)
    assert (pid = q_pid rq) as -> by (destruct Hsame; congruence).
    destruct (q_stopped rq); [|reflexivity].
    destruct Hns. repeat split; [congruence|rewrite <- Hid; reflexivity]. }
  destruct (ws_announce_ok false cfg _ rq 0 0 0 (Hok j Hj)) as (s2 & outs2 & Ha2 & Hok2).
  unfold ws_announce in Ha. rewrite Ha in Ha2. injection Ha2 as <- <-.
  apply Own_iff. cbn [y_workers y_conns]. split; [rewrite yset_length; exact Hlen|]. split; [apply all_ok_yset; assumption|]. split.
  - intros key c0. rewrite find_conn_put. change (sc_key c') with who. destruct (pair_eqb who key); [|apply Hnd].
    intros [= <-]. apply record_announce_nodup, (Hnd _ _ Hc).
  - intros i f h pid p Hi He. rewrite yget_yset_lt in He by lia. destruct (Nat.eqb_spec i j) as [->|Hne].
    + destruct (announce_entries cfg _ rq 0 0 0 s' outs (Hok j Hj) Ha f h pid p He)
        as [(p0 & He0 & Eo & Hns)|(-> & -> & -> & Eo & Hns)].
      * destruct (Hown j f h pid p0 Hj He0) as [Hr Hro]. split; [|exact Hro]. rewrite <- Eo. apply Hkeep; [exact Hr|].
        rewrite Eo. exact Hns.
      * split; [|reflexivity]. rewrite Eo, Hid. apply recorded_put.
        destruct (pair_eqb_spec who who); [|contradiction]. split; [symmetry; exact Hfam|].
        rewrite Hrec, N.eqb_refl, Hns. reflexivity.
    + destruct (Hown i f h pid p Hi He) as [Hr Hro]. split; [|exact Hro]. apply Hkeep; [exact Hr|].
      intros (_ & _ & -> & _). exact (Hne (eq_sym Hro)).
Qed.

Theorem Own_step cfg cut ae k y who a y' msgs : (0 < k)%nat ->
  Own k y -> action_wf y who a -> wsys_step cfg cut ae k y who a = Ok (y', msgs) -> Own k y'.
Proof.
  intros Hk HO Hwf H. destruct (find_conn who (y_conns y)) as [c|] eqn:Hc.
  2:{ (* not connected: only an open does anything *)
      unfold wsys_step in H. rewrite Hc in H. destruct a as [v6| | | |]; injection H as <- _; [|exact HO..].
      apply Own_open; assumption. }
  destruct a as [v6|rq|hs| |]; [cbn [action_wf] in Hwf; congruence| |unfold wsys_step in H; rewrite Hc in H..].
  - destruct (aget N.eqb (q_hash rq) (sc_announced c)) as [pid'|] eqn:Ea; [destruct (N.eq_dec pid' (q_pid rq)) as [->|Hne]|].
    + exact (Own_announce cfg cut ae k y who c rq y' msgs Hk HO Hc Hwf (or_intror Ea) H).
    + (* a second peer id: refused, the connection is torn down *)
      destruct (wsys_step_refused _ _ _ _ _ _ _ _ _ _ _ Hc Ea Hne H) as (ws' & Hcl & -> & _).
      apply (Own_close k y who c ws' Hk HO Hc Hcl).
    + exact (Own_announce cfg cut ae k y who c rq y' msgs Hk HO Hc Hwf (or_introl Ea) H).
  - destruct hs as [hs|]; [|injection H as <- _; exact HO].
    destruct (if cut then firstn (wc_max_scrape cfg) hs else hs); [injection H as <- _; exact HO|].
    apply obind_ok in H as (files & _ & [= <- _]). exact HO.
  - injection H as <- _. exact HO.
  - apply obind_ok in H as (ws' & Hcl & [= <- _]). apply (Own_close k y who c ws' Hk HO Hc Hcl).
Qed.

Fixpoint wsys_run (cfg : wcfg) (cut ae : bool) (k : nat) (y : wsys) (acts : list ((N * N) * caction))
  : outcome (wsys * list (list dmsg)) :=
  match acts with
  | [] => Ok (y, [])
  | (who, a) :: t =>
      let! (y1, m) := wsys_step cfg cut ae k y who a in
      let! (y2, ms) := wsys_run cfg cut ae k y1 t in
      Ok (y2, m :: ms)
  end.

Fixpoint run_wf (cfg : wcfg) (cut ae : bool) (k : nat) (y : wsys) (acts : list ((N * N) * caction)) : Prop :=
  match acts with
  | [] => True
  | (who, a) :: t =>
      action_wf y who a /\ match wsys_step cfg cut ae k y who a with
                           | Ok (y1, _) => run_wf cfg cut ae k y1 t
                           | Panic => True
                           end
  end.

Lemma scrape_collect_total cfg k ws who v6 asked : all_ok k ws -> forall js, (forall j, In j js -> (j < k)%nat) ->
  exists files, scrape_collect cfg k ws who v6 asked js = Ok files.
Proof.
  intros Hok. induction js as [|j t IH]; intros Hjs; cbn [scrape_collect]; [eauto|].
  destruct (IH (fun i Hi => Hjs i (or_intror Hi))) as (rest & Er).
  destruct (wpart k j asked) as [|h0 p0] eqn:Ep; [eauto|].
  destruct (ws_scrape_total cfg (yget ws j) (fst who) (snd who) v6 (Some (h0 :: p0)) (Hok j (Hjs j (or_introl eq_refl))))
    as (files & Ef).
  rewrite Ef. cbn [obind]. rewrite Er. cbn [obind]. eauto.
Qed.

Theorem wsys_step_total cfg cut ae k y who a :
  (0 < k)%nat -> Own k y -> exists y' msgs, wsys_step cfg cut ae k y who a = Ok (y', msgs).
Proof.
  intros Hk (Hlen & Hok & _ & _). unfold wsys_step.
  destruct (find_conn who (y_conns y)) as [c|]; [|destruct a; eauto].
  destruct (close_all_spec k (sc_v6 c) Hk (sc_announced c) _ Hlen Hok) as (ws' & Hcl & _).
  destruct a as [v6|rq|hs| |]; [eauto| | |eauto|rewrite Hcl; cbn [obind]; eauto].
  - destruct (match aget _ _ (sc_announced c) with Some _ => _ | None => _ end); [rewrite Hcl; cbn [obind]; eauto|].
    destruct (ws_announce_ok false cfg (yget (y_workers y) (wroute k (q_hash rq))) rq 0 0 0 (Hok _ (wroute_lt k _ Hk)))
      as (s' & outs & Ha & _).
    unfold ws_announce. rewrite Ha. cbn [obind]. eauto.
  - destruct hs as [hs|]; [|eauto]. destruct (if cut then firstn (wc_max_scrape cfg) hs else hs) as [|h0 t]; [eauto|].
    destruct (scrape_collect_total cfg k (y_workers y) who (sc_v6 c) (h0 :: t) Hok (seq 0 k)
                ltac:(intros j Hj; apply in_seq in Hj; lia)) as (files & ->). cbn [obind]. eauto.
Qed.

