(* C05: connection ids are bound to the source address and to a time window. *)
From Aquatic Require Import Validator.
Local Open Scope N_scope.

(* little endian is big endian read backwards: every fact about le32 / u32_of is the
   corresponding be_enc / be_dec fact of Lib/Bytes.v *)
Lemma le32_be n : le32 n = rev (be_enc 4 n).
Proof. unfold le32. cbn [be_enc rev app]. rewrite N.div_1_r. reflexivity. Qed.

Lemma u32_of_be bs : length bs = 4%nat -> u32_of bs = be_dec (rev bs).
Proof.
  intros Hl. destruct bs as [|a [|b [|c [|d [|? ?]]]]]; try discriminate.
  unfold u32_of, be_dec. cbn [rev app be_dec_acc]. ring.
Qed.

Lemma le32_length n : length (le32 n) = 4%nat.
Proof. reflexivity. Qed.

Lemma u32_of_le32 n : n < two32 -> u32_of (le32 n) = n.
Proof.
  intros H. rewrite u32_of_be by apply le32_length.
  rewrite le32_be, rev_involutive. apply be_dec_enc, H.   (* [two32] is [pow256 4] by computation *)
Qed.

Lemma u32_of_lt bs : length bs = 4%nat -> bytes_ok bs -> u32_of bs < two32.
Proof.
  intros Hl Hb. rewrite u32_of_be by exact Hl. apply Forall_rev, be_dec_bound in Hb.
  rewrite rev_length, Hl in Hb. exact Hb.
Qed.

Lemma le32_u32_of bs : length bs = 4%nat -> bytes_ok bs -> le32 (u32_of bs) = bs.
Proof.
  intros Hl Hb. rewrite le32_be, u32_of_be by exact Hl. apply Forall_rev, be_enc_dec in Hb.
  rewrite rev_length, Hl in Hb. rewrite Hb. apply rev_involutive.
Qed.

Lemma le32_inj a b : a < two32 -> b < two32 -> le32 a = le32 b -> a = b.
Proof. intros Ha Hb H. rewrite <- (u32_of_le32 a Ha), <- (u32_of_le32 b Hb), H. reflexivity. Qed.

Lemma u32_add_no_wrap a b : a < two32 -> b < two32 -> (a + b) mod two64 = a + b.
Proof.
  intros Ha Hb. apply N.mod_small, N.lt_trans with (two32 + two32); [|reflexivity].
  apply N.add_lt_mono; assumption.
Qed.

Section Facts.
  Variable mac : list N -> N.

  (* the two halves [valid] cuts an id into, for an id that [create] issued *)
  Lemma create_time t ip : firstn 4 (create mac t ip) = le32 t.
  Proof. reflexivity. Qed.

  Lemma create_tag t ip : skipn 4 (create mac t ip) = tag mac (le32 t ++ ip).
  Proof. reflexivity. Qed.

  (* [valid] read as a proposition; nothing is assumed of the id *)
  Lemma valid_iff now age ip id :
    valid mac now age ip id = true <->
    skipn 4 id = tag mac (firstn 4 id ++ ip)
    /\ now < (u32_of (firstn 4 id) + age) mod two64
    /\ u32_of (firstn 4 id) <= (now + 60) mod two64.
  Proof.
    unfold valid. rewrite <- bytes_eqb_eq. destruct (bytes_eqb _ _); cbn [negb].
    - rewrite andb_true_iff, N.ltb_lt, N.leb_le. tauto.
    - split; [discriminate|intros [H _]; discriminate].
  Qed.

  Lemma create_iff ip id :
    length (firstn 4 id) = 4%nat -> bytes_ok (firstn 4 id) ->
    (id = create mac (u32_of (firstn 4 id)) ip <-> skipn 4 id = tag mac (firstn 4 id ++ ip)).
  Proof.
    intros Hl Hb. unfold create. rewrite le32_u32_of by assumption.
    rewrite <- (firstn_skipn 4 id) at 1. apply app_inv_head_iff.
  Qed.

  Theorem window t0 now age ip :
    t0 < two32 -> now < two32 -> age < two32 ->
    (valid mac now age ip (create mac t0 ip) = true <-> (now < t0 + age /\ t0 <= now + 60)).
  Proof.
    intros H0 Hn Ha. rewrite valid_iff, create_time, create_tag.
    rewrite u32_of_le32, !u32_add_no_wrap by (assumption || reflexivity).
    tauto.
  Qed.
End Facts.
