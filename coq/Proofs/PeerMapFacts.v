(* The list-level operations of the peer-map model are the association-list operations of
   AssocFacts under other names; what is specific to peers is the seeder count. *)
From Aquatic Require Import RefTracker WsSwarm.
From Aquatic Require Export AssocFacts.

Lemma find_key_aget k l : find_key k l = aget N.eqb k l.
Proof. unfold find_key. induction l as [|[k' p] t IH]; cbn; [reflexivity|]. now destruct (N.eqb k' k). Qed.

Lemma im_insert_aput k p l : im_insert k p l = aput N.eqb k p l.
Proof. reflexivity. Qed.

Lemma im_swap_remove_aswap k l : im_swap_remove k l = aswap_remove N.eqb k l.
Proof. reflexivity. Qed.

(* [ref_remove] is [aremove] by definition: [change] one into the other where a rewrite needs it. *)
Lemma small_remove_spec k l :
  NoDup (keys l) -> small_remove k l = (find_key k l, ref_remove k l).
Proof.
  rewrite find_key_aget. change (ref_remove k l) with (aremove k l).
  induction l as [|[k' p] t IH]; [reflexivity|]. cbn [small_remove aget keys map fst]. rewrite aremove_cons.
  intros [Hx Ht]%NoDup_cons_iff.
  destruct (N.eqb_spec k' k) as [->|_]; [now rewrite (aremove_absent _ _ Hx)|now rewrite (IH Ht)].
Qed.

Lemma swap_remove_spec k l :
  NoDup (keys l) ->
  fst (im_swap_remove k l) = find_key k l /\ Permutation (snd (im_swap_remove k l)) (ref_remove k l).
Proof.
  intros H. rewrite im_swap_remove_aswap, find_key_aget.
  split; [apply aswap_remove_fst|apply aswap_remove_perm, H].
Qed.

Lemma swap_remove_length k l :
  NoDup (keys l) -> length (snd (im_swap_remove k l)) = length (ref_remove k l).
Proof. intros H; apply Permutation_length, swap_remove_spec, H. Qed.

Lemma keys_app a b : keys (a ++ b) = keys a ++ keys b.
Proof. apply map_app. Qed.

Lemma keys_length l : length (keys l) = length l.
Proof. apply map_length. Qed.

Lemma keys_perm l l' : Permutation l l' -> Permutation (keys l) (keys l').
Proof. apply Permutation_map. Qed.

Lemma ref_remove_in k l x : In x (keys l) -> x <> k -> In x (keys (ref_remove k l)).
Proof.
  intros H Hne. change (In x (map fst (aremove k l))). rewrite aremove_keys. apply filter_In. split; [exact H|].
  now destruct (N.eqb_spec x k).
Qed.

Lemma ref_remove_incl k l : incl (keys (ref_remove k l)) (keys l).
Proof. change (incl (map fst (aremove k l)) (keys l)). rewrite aremove_keys. apply incl_filter. Qed.

Lemma pm_is_empty_length pm : pm_is_empty pm = (length (pm_entries pm) =? 0).
Proof. unfold pm_is_empty. now destruct (pm_entries pm). Qed.

Lemma pm_is_empty_nil pm : pm_is_empty pm = true <-> pm_entries pm = [].
Proof. unfold pm_is_empty. now destruct (pm_entries pm). Qed.

Lemma pm_refines_empty pm e : pm_is_empty pm = true -> pm_refines pm e -> e = [].
Proof. intros He Hr. apply pm_is_empty_nil in He. unfold pm_refines in Hr. rewrite He in Hr. apply Permutation_nil, Hr. Qed.

Lemma count_seeders_perm l l' : Permutation l l' -> count_seeders l = count_seeders l'.
Proof. intros H. apply Permutation_length, Permutation_filter, H. Qed.

Lemma count_seeders_cons e l :
  count_seeders (e :: l) = (if p_seeder (snd e) then 1 else 0) + count_seeders l.
Proof. unfold count_seeders; cbn. now destruct (p_seeder (snd e)). Qed.

Lemma count_seeders_app a b : count_seeders (a ++ b) = count_seeders a + count_seeders b.
Proof. unfold count_seeders. now rewrite filter_app, app_length. Qed.

Lemma count_seeders_le l : count_seeders l <= length l.
Proof. apply filter_length_le. Qed.

Lemma count_seeders_split l : count_seeders l + (length l - count_seeders l) = length l.
Proof. pose proof (count_seeders_le l). lia. Qed.

(* LargePeerMap::remove_peer: the stored seeder count goes down by one when a seeder leaves,
   which keeps it exact *)
Lemma remove_peer_count k l :
  NoDup (keys l) ->
  match find_key k l with
  | Some p => if p_seeder p then checked_pred (count_seeders l) else Ok (count_seeders l)
  | None => Ok (count_seeders l)
  end = Ok (count_seeders (ref_remove k l)).
Proof.
  intros H. rewrite find_key_aget. change (ref_remove k l) with (aremove k l).
  destruct (aget N.eqb k l) as [p|] eqn:E.
  - rewrite (count_seeders_perm _ _ (aremove_present _ _ _ H E)), count_seeders_cons. cbn [snd].
    destruct (p_seeder p); [unfold checked_pred; rewrite checked_sub_ok by lia|]; f_equal; lia.
  - apply aget_none_notin in E. now rewrite (aremove_absent _ _ E).
Qed.

(* the per-entry decrements of a cleaning pass, started from any count that covers the seeders *)
Lemma dec_expired_spec now l : forall n,
  dec_expired_seeders now l (n + count_seeders l) = Ok (n + count_seeders (filter (peer_valid now) l)).
Proof.
  induction l as [|e t IH]; intros n; [reflexivity|].
  cbn [dec_expired_seeders filter]. rewrite count_seeders_cons.
  destruct (peer_valid now e); cbn [negb andb obind].
  - rewrite count_seeders_cons, !Nat.add_assoc. apply IH.
  - destruct (p_seeder (snd e)); cbn [andb obind]; [|apply IH].
    unfold checked_pred. rewrite checked_sub_ok by lia. cbn [obind].
    replace (n + (1 + count_seeders t) - 1) with (n + count_seeders t) by lia. apply IH.
Qed.
