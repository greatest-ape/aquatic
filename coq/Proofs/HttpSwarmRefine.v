(* C07: the http swarm storage model refines the reference tracker, for every history. *)
From Aquatic Require Import WsSwarm RefSwarm HttpSwarm PeerMapFacts PeerMapRefine SwarmCommon.

(* reference behaviour of the http operations over the same reference state.  Unlike udp's
   RScrape, HRScrape carries no reply: the http reply is a BTreeMap keyed by info hash, in which
   a hash requested twice shows once, not the positional list that the reference computes for
   udp; [scrape_ok] below says which maps are right *)
Inductive hrout :=
| HRAnnounce (complete incomplete : nat)
| HRScrape
| HRClean.

Definition hr_step (r : rstate) (op : hop) : rstate * hrout :=
  match op with
  | HAnnounce v6 hash key stopped bleft until want _ _ =>
      let '(e', (s, l)) := ref_announce (r v6 hash) key (hstatus_of stopped bleft) 0%N until in
      (rset r v6 hash e', HRAnnounce s l)
  | HScrape _ _ => (r, HRScrape)
  | HClean now mode acl =>
      (fun f h => if allows mode acl h then ref_clean now (r f h) else [], HRClean)
  end.

Fixpoint hr_final (r : rstate) (ops : list hop) : rstate :=
  match ops with [] => r | op :: t => hr_final (fst (hr_step r op)) t end.

Lemma hr_step_announce r v6 hash key stopped bleft until want o1 o2 :
  fst (hr_step r (HAnnounce v6 hash key stopped bleft until want o1 o2))
  = rset r v6 hash (fst (ref_announce (r v6 hash) key (hstatus_of stopped bleft) 0%N until)).
Proof. reflexivity. Qed.

(* the BTreeMap of a scrape reply is an association list in the sense of AssocFacts *)
Lemma assoc_insert_aput {V} k (v : V) l : assoc_insert k v l = aput N.eqb k v l.
Proof. induction l as [|[k' v'] t IH]; cbn; [reflexivity|]. now rewrite IH. Qed.

(* a scrape reply, or one in the making: no hash twice, each with the counts of its reference collection *)
Definition counts_ok (rf : N -> entries) (files : list (N * (nat * nat))) : Prop :=
  NoDup (map fst files) /\ forall h c, In (h, c) files -> c = ref_counts (rf h).

Lemma counts_ok_app rf a b :
  counts_ok rf a -> counts_ok rf b -> (forall h, In h (map fst a) -> In h (map fst b) -> False) -> counts_ok rf (a ++ b).
Proof.
  intros [Na Va] [Nb Vb] Hd. split; [rewrite map_app; apply NoDup_app; assumption|].
  intros h c [H|H]%in_app_or; auto.
Qed.

Section Http.
  Variable cfg : hcfg.
  Let cap := hc_cap cfg.
  Notation fam_rel := (fam_rel cap false).

  Definition HR (s : hstate) (r : rstate) : Prop := forall v6, fam_rel (hfam s v6) (r v6).

  Lemma HR_init : HR hinit rinit.
  Proof.
    intros v6. destruct v6; apply fam_rel_empty.
  Qed.

  Lemma hfam_hset s v6 tm f : hfam (hset s v6 tm) f = if Bool.eqb f v6 then tm else hfam s f.
  Proof. destruct f, v6; reflexivity. Qed.

  (* what a scrape reply must look like: one entry per distinct requested hash among the first
     max_scrape_torrents, carrying the reference counts (zeros when the reference holds nothing) *)
  Definition scrape_ok (r : rstate) (v6 : bool) (hashes : list N) (files : list (N * (nat * nat))) : Prop :=
    let asked := firstn (Nat.min (length hashes) (hc_max_scrape cfg)) hashes in
    NoDup (map fst files)
    /\ (forall h, In h (map fst files) <-> In h asked)
    /\ (forall h c, In (h, c) files -> c = ref_counts (r v6 h)).

  (* the torrent counts a cleaning pass returns are left open ([h_step_clean_eq] computes them) *)
  Definition hobs_ok (r : rstate) (op : hop) (out : hout) : Prop :=
    match op, out, snd (hr_step r op) with
    | HAnnounce v6 hash key _ _ _ want _ _, HOAnnounce s l peers, HRAnnounce s' l' =>
        s = s' /\ l = l'
        /\ selection_ok key (ref_remove key (r v6 hash)) (limit_http want (hc_max_peers cfg)) peers
    | HScrape v6 hashes, HOScrape files, HRScrape => scrape_ok r v6 hashes files
    | HClean _ _ _, HOClean _ _, HRClean => True
    | _, _, _ => False
    end.

  Lemma counts_ok_insert rf h acc : counts_ok rf acc -> counts_ok rf (assoc_insert h (ref_counts (rf h)) acc).
  Proof.
    intros [Hnd Hval]. rewrite assoc_insert_aput. split; [apply aput_nodup, Hnd|].
    intros x c [[-> ->]|Hin]%aput_in; [reflexivity|apply Hval, Hin].
  Qed.

  Lemma scrape_loop_spec tm rf hs : forall acc,
    fam_rel tm rf -> counts_ok rf acc ->
    exists files, h_scrape_loop tm hs acc = Ok files /\ counts_ok rf files
      /\ forall h, In h (map fst files) <-> In h (map fst acc) \/ In h hs.
  Proof.
    induction hs as [|h t IH]; intros acc Hrel Hacc; cbn [h_scrape_loop].
    - exists acc. split; [reflexivity|]. split; [exact Hacc|]. intros x. cbn. tauto.
    - rewrite (fam_counts tm rf h Hrel). cbn [obind].
      destruct (IH _ Hrel (counts_ok_insert rf h acc Hacc)) as (files & Hf & Hok & Hkeys).
      exists files. split; [exact Hf|]. split; [exact Hok|].
      intros x. rewrite Hkeys, assoc_insert_aput, aput_in_keys. cbn.
      split; [intros [[->|H]|H]|intros [H|[<-|H]]]; auto.
  Qed.

  Lemma h_scrape_spec s r v6 hashes :
    HR s r -> exists files, h_scrape cfg (hfam s v6) hashes = Ok files /\ scrape_ok r v6 hashes files.
  Proof.
    intros HRs. unfold h_scrape.
    destruct (scrape_loop_spec (hfam s v6) (r v6)
                (firstn (Nat.min (length hashes) (hc_max_scrape cfg)) hashes) [] (HRs v6))
      as (files & Hf & [Hnd Hv] & Hk); [split; [constructor|intros ? ? []]|].
    exists files. split; [exact Hf|]. split; [exact Hnd|]. split; [|exact Hv].
    intros h. rewrite Hk. cbn. tauto.
  Qed.

  Lemma h_clean_fam_eq now mode acl tm :
    Forall (fun e => pmap_inv cap false (snd e)) tm ->
    h_clean_fam cfg now mode acl tm = Ok (clean_fam cap false now mode acl tm).
  Proof.
    unfold clean_fam.
    induction 1 as [|[h pm] t Hpm _ IH]; cbn [h_clean_fam filter map clean_entry fst snd]; [reflexivity|].
    destruct (allows mode acl h); cbn [negb andb]; [|exact IH].
    fold cap. rewrite (pm_clean_eq false pm now Hpm), IH. unfold ref_counts. cbn [obind].
    (* the model keeps the torrent iff seeders + leechers > 0, and that sum is the number of entries *)
    rewrite pm_is_empty_length, pm_clean_pure_entries, count_seeders_split.
    now destruct (length (filter (peer_valid now) (pm_entries pm))).
  Qed.

  Definition h_clean (now : N) (mode : acl_mode) (acl : list N) (s : hstate) : hstate :=
    mkH (clean_fam cap false now mode acl (h4 s)) (clean_fam cap false now mode acl (h6 s)).

  Lemma h_step_clean_eq s r now mode acl :
    HR s r ->
    h_step cfg s (HClean now mode acl)
    = let s' := h_clean now mode acl s in Ok (s', HOClean (length (h4 s')) (length (h6 s'))).
  Proof.
    intros H. cbn [h_step].
    rewrite (h_clean_fam_eq now mode acl (h4 s) (fam_rel_forall _ _ (H false))),
      (h_clean_fam_eq now mode acl (h6 s) (fam_rel_forall _ _ (H true))).
    reflexivity.
  Qed.

  Lemma h_clean_refines s r now mode acl :
    HR s r -> HR (h_clean now mode acl s) (fst (hr_step r (HClean now mode acl))).
  Proof. intros H f. cbn [hr_step fst]. destruct f; apply fam_clean_refines; [exact (H true)|exact (H false)]. Qed.

  Theorem hstep_refines s r op :
    HR s r ->
    exists s' out, h_step cfg s op = Ok (s', out) /\ HR s' (fst (hr_step r op)) /\ hobs_ok r op out.
  Proof.
    intros HRs. destruct op as [v6 hash key stopped bleft until want o1 o2|v6 hashes|now mode acl].
    - cbn [h_step]. unfold h_announce.
      destruct (fam_announce_refines (hfam s) r v6 hash key (hstatus_of stopped bleft) 0%N until
                  (limit_http want (hc_max_peers cfg)) o1 o2 HRs)
        as (pm' & rep & removed & Ha & Hfam & Hcnt & Hsel).
      fold cap. rewrite Ha. cbn [obind]. do 2 eexists. split; [reflexivity|].
      unfold hobs_ok. cbn [hr_step].
      destruct (ref_announce (r v6 hash) key (hstatus_of stopped bleft) 0%N until) as [e' [s0 l0]].
      cbn [fst snd] in *. split.
      + intros f. rewrite hfam_hset. apply Hfam.
      + injection Hcnt as -> ->. split; [reflexivity|]. split; [reflexivity|exact Hsel].
    - cbn [h_step]. destruct (h_scrape_spec s r v6 hashes HRs) as (files & -> & Hok). cbn [obind].
      do 2 eexists. split; [reflexivity|]. split; [exact HRs|exact Hok].
    - rewrite (h_step_clean_eq s r now mode acl HRs). do 2 eexists. split; [reflexivity|].
      split; [apply h_clean_refines, HRs|exact I].
  Qed.

  (* a cleaning pass keeps exactly the unexpired entries of the permitted torrents (C10, C11) *)
  Lemma hclean_exact s r now mode acl :
    HR s r ->
    exists s' out, h_step cfg s (HClean now mode acl) = Ok (s', out)
      /\ forall v6 h k p,
           In (k, p) (pm_entries (tm_get h (hfam s' v6)))
           <-> allows mode acl h = true /\ In (k, p) (pm_entries (tm_get h (hfam s v6))) /\ (now < p_until p)%N.
  Proof.
    intros H. destruct (hstep_refines s r (HClean now mode acl) H) as (s' & out & Hs & H' & _).
    exists s', out. split; [exact Hs|]. intros v6 h k p.
    exact (fam_clean_exact now mode acl _ _ _ h k p (H v6) (H' v6)).
  Qed.

  Fixpoint htrace_ok (r : rstate) (ops : list hop) (outs : list hout) : Prop :=
    match ops, outs with
    | [], [] => True
    | op :: ops', out :: outs' => hobs_ok r op out /\ htrace_ok (fst (hr_step r op)) ops' outs'
    | _, _ => False
    end.

  Theorem hrun_refines ops : forall s r,
    HR s r ->
    exists s' outs, h_run cfg s ops = Ok (s', outs) /\ HR s' (hr_final r ops) /\ htrace_ok r ops outs.
  Proof.
    induction ops as [|op t IH]; intros s r HRs; cbn [h_run hr_final].
    - do 2 eexists. split; [reflexivity|]. split; [exact HRs|exact I].
    - destruct (hstep_refines s r op HRs) as (s1 & out & Hs & HR1 & Hobs).
      rewrite Hs. cbn [obind].
      destruct (IH s1 _ HR1) as (s2 & outs & Hr & HR2 & Htr).
      rewrite Hr. cbn [obind].
      do 2 eexists. split; [reflexivity|]. split; [exact HR2|]. cbn [htrace_ok]. split; assumption.
  Qed.
End Http.
