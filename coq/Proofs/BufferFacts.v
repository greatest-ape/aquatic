(* C18: lengths of the replies the writers produce.  Every bound is the bytes of the writer's literals
   plus 20 for each decimal number it writes (itoa_length). *)
From Aquatic Require Import ListFacts Buffers.
Local Open Scope N_scope.

Lemma itoa_f_length fuel n : (length (itoa_f fuel n) <= fuel)%nat.
Proof.
  revert n. induction fuel as [|f IH]; intros n; cbn; [lia|].
  destruct (n <? 10); cbn; [lia|]. rewrite app_length. specialize (IH (n / 10)). cbn. lia.
Qed.

Lemma itoa_length n : (length (itoa n) <= 20)%nat.
Proof. apply itoa_f_length. Qed.

Lemma concat_peer_bytes_length w (ps : list (list N * N)) :
  Forall (fun p => length (fst p) = w) ps -> length (concat (map peer_bytes ps)) = (length ps * (w + 2))%nat.
Proof.
  intros H. rewrite Nat.mul_comm. apply concat_map_length. revert H. apply Forall_impl. intros p Hp.
  unfold peer_bytes. rewrite app_length, be_enc_length, Hp. reflexivity.
Qed.

(* 158: literals "d8:completei" 12, "e10:incompletei" 15, "e8:intervali" 12, "e5:peers" 8, ":" 1,
   "6:peers6" 8, ":" 1, "e" 1, and five numbers; a peer entry is its address and 2 bytes of port *)
Lemma write_announce_length c i iv p4 p6 :
  Forall (fun p => length (fst p) = 4%nat) p4 -> Forall (fun p => length (fst p) = 16%nat) p6 ->
  (length (write_announce c i iv p4 p6 None) <= 158 + 6 * length p4 + 18 * length p6)%nat.
Proof.
  intros H4 H6. unfold write_announce. rewrite !app_length.
  rewrite (concat_peer_bytes_length 4 p4 H4), (concat_peer_bytes_length 16 p6 H6).
  pose proof (itoa_length c). pose proof (itoa_length i). pose proof (itoa_length iv).
  pose proof (itoa_length (N.of_nat (length p4) * 6)). pose proof (itoa_length (N.of_nat (length p6) * 18)).
  cbn [str length]. lia.
Qed.

(* 108: literals "20:" 3, "d8:completei" 12, "e10:downloadedi0e10:incompletei" 31, "ee" 2, the 20-byte
   hash and two numbers *)
Lemma write_scrape_entry_length f : length (fst f) = 20%nat -> (length (write_scrape_entry f) <= 108)%nat.
Proof.
  intros H. unfold write_scrape_entry. rewrite !app_length, H.
  pose proof (itoa_length (fst (snd f))). pose proof (itoa_length (snd (snd f))). cbn [str length]. lia.
Qed.

(* 11: "d5:filesd" 9, "ee" 2 *)
Lemma write_scrape_length files :
  Forall (fun f => length (fst f) = 20%nat) files -> (length (write_scrape files) <= 11 + 108 * length files)%nat.
Proof.
  intros H. unfold write_scrape. rewrite !app_length. cbn [str length].
  pose proof (concat_map_length_le write_scrape_entry files 108 (Forall_impl _ write_scrape_entry_length H)). lia.
Qed.

(* 40: "d14:failure reason" 18, ":" 1, "e" 1 and one number *)
Lemma write_failure_length reason : (length (write_failure reason) <= 40 + length reason)%nat.
Proof.
  unfold write_failure. rewrite !app_length. pose proof (itoa_length (N.of_nat (length reason))).
  cbn [str length]. lia.
Qed.
