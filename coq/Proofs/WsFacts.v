(* One WebTorrent swarm worker's storage (Model/WsSwarm.v): the invariant [wstate_ok] (peer ids unique,
   num_seeders exact) under which no operation fails, and what the receiver selection, an announce,
   a close notification and a cleaning pass do to the stored entries (C02 and C10 WebTorrent parts, C08, C09). *)
From Aquatic Require Import WsSwarm AssocFacts Selection.

Definition wkeys (l : list (N * wpeer)) : list N := map fst l.
Definition wcount (l : list (N * wpeer)) : nat := length (filter (fun e => w_seeder (snd e)) l).
Definition sw (b : bool) : nat := if b then 1 else 0.
(* what a stored entry, if any, contributes to the seeder count *)
Definition osw (o : option wpeer) : nat := match o with Some p => sw (w_seeder p) | None => 0 end.

Definition wt_ok (t : wtorrent) : Prop := NoDup (wkeys (wt_peers t)) /\ wt_ns t = wcount (wt_peers t).

Lemma wcount_cons e l : wcount (e :: l) = sw (w_seeder (snd e)) + wcount l.
Proof. unfold wcount; cbn. destruct (w_seeder (snd e)); reflexivity. Qed.

Lemma wcount_le l : wcount l <= length l.
Proof. apply filter_length_le. Qed.

Lemma wcount_perm l l' : Permutation l l' -> wcount l = wcount l'.
Proof. intros H. apply Permutation_length, Permutation_filter, H. Qed.

Lemma wcount_aput k v l : wcount (aput N.eqb k v l) + osw (aget N.eqb k l) = wcount l + sw (w_seeder v).
Proof.
  induction l as [|[k' p'] t IH]; cbn [aget aput]; [rewrite wcount_cons; cbn; lia|].
  destruct (N.eqb k' k); rewrite !wcount_cons; cbn [snd osw]; lia.
Qed.

Lemma wcount_present k p l :
  NoDup (wkeys l) -> aget N.eqb k l = Some p -> wcount l = sw (w_seeder p) + wcount (snd (aswap_remove N.eqb k l)).
Proof. intros Hnd E. rewrite (wcount_perm _ _ (aswap_remove_present _ _ _ Hnd E)). apply wcount_cons. Qed.

Lemma length_aremove k (l : list (N * wpeer)) :
  NoDup (wkeys l) ->
  length l = length (aremove k l) + match aget N.eqb k l with Some _ => 1 | None => 0 end.
Proof. apply aremove_length. Qed.

Lemma dec_seeder_eq b n : sw b <= n -> (if b then checked_pred n else Ok n) = Ok (n - sw b).
Proof. destruct b; cbn [sw]; intros H; [apply checked_sub_ok, H|rewrite Nat.sub_0_r; reflexivity]. Qed.

Lemma osw_le t k : wt_ok t -> osw (aget N.eqb k (wt_peers t)) <= wt_ns t.
Proof.
  intros [Hnd ->]. destruct (aget N.eqb k (wt_peers t)) as [p|] eqn:E; cbn [osw]; [|lia].
  rewrite (wcount_present _ _ _ Hnd E). lia.
Qed.

Lemma wt_put_ok t k v ns :
  wt_ok t -> ns + osw (aget N.eqb k (wt_peers t)) = wt_ns t + sw (w_seeder v) ->
  wt_ok (mkWt (aput N.eqb k v (wt_peers t)) ns).
Proof.
  intros [Hnd Hns] H. split; cbn [wt_peers wt_ns]; [apply aput_nodup, Hnd|].
  pose proof (wcount_aput k v (wt_peers t)). lia.
Qed.

(* [IndexMap::swap_remove] and the seeder count, as a stopped announce and a closed connection
   do it *)
Definition wt_remove (k : N) (t : wtorrent) : wtorrent :=
  match aget N.eqb k (wt_peers t) with
  | Some p => mkWt (snd (aswap_remove N.eqb k (wt_peers t))) (wt_ns t - sw (w_seeder p))
  | None => t
  end.

Lemma wt_remove_ok k t : wt_ok t -> wt_ok (wt_remove k t).
Proof.
  intros Hok. unfold wt_remove. destruct (aget N.eqb k (wt_peers t)) as [p|] eqn:E; [|exact Hok].
  destruct Hok as [Hnd Hns]. split; cbn [wt_peers wt_ns]; [apply aswap_remove_nodup, Hnd|].
  rewrite Hns, (wcount_present _ _ _ Hnd E). lia.
Qed.

Lemma aget_wt_remove k t k' :
  wt_ok t -> aget N.eqb k' (wt_peers (wt_remove k t)) = if N.eqb k' k then None else aget N.eqb k' (wt_peers t).
Proof.
  intros [Hnd _]. unfold wt_remove. destruct (aget N.eqb k (wt_peers t)) as [p|] eqn:E; cbn [wt_peers].
  - rewrite aget_aswap_remove by exact Hnd. apply aget_aremove.
  - destruct (N.eqb_spec k' k) as [->|]; [exact E|reflexivity].
Qed.

(* insert_or_update_peer.  The record an accepted, non-stopped announce stores: the creator's connection and pending
   offers are kept, status and deadline are the announced ones *)
Definition upsert_record (t : wtorrent) (rq : wreq) (until : N) (seed : bool) : wpeer :=
  match aget N.eqb (q_pid rq) (wt_peers t) with
  | Some p => mkWpeer (w_consumer p) (w_conn p) seed until (w_expect p)
  | None => mkWpeer (q_consumer rq) (q_conn rq) seed until []
  end.

Lemma upsert_record_spec t rq until seed :
  let p := upsert_record t rq until seed in
  w_seeder p = seed /\ w_until p = until
  /\ match aget N.eqb (q_pid rq) (wt_peers t) with
     | Some old => w_consumer p = w_consumer old /\ w_conn p = w_conn old /\ w_expect p = w_expect old
     | None => w_consumer p = q_consumer rq /\ w_conn p = q_conn rq /\ w_expect p = []
     end.
Proof. unfold upsert_record. destruct (aget N.eqb (q_pid rq) (wt_peers t)); cbn; auto. Qed.

Definition upsert_entry (t : wtorrent) (rq : wreq) (until : N) (st : wstatus) : option wpeer :=
  match st with
  | WSeeding => Some (upsert_record t rq until true)
  | WLeeching => Some (upsert_record t rq until false)
  | WStopped => None
  end.

Lemma ws_upsert_store t rq until (seed : bool) :
  wt_ok t ->
  exists ns, ws_upsert t rq until (if seed then WSeeding else WLeeching)
             = Ok (mkWt (aput N.eqb (q_pid rq) (upsert_record t rq until seed) (wt_peers t)) ns)
    /\ ns + osw (aget N.eqb (q_pid rq) (wt_peers t)) = wt_ns t + sw (w_seeder (upsert_record t rq until seed)).
Proof.
  intros Hok. pose proof (osw_le t (q_pid rq) Hok) as Hle. unfold ws_upsert, upsert_record.
  destruct (aget N.eqb (q_pid rq) (wt_peers t)) as [p|] eqn:E; cbn [osw w_seeder] in *.
  - destruct seed.
    + eexists. split; [reflexivity|]. destruct (w_seeder p); cbn [sw]; lia.
    + rewrite (dec_seeder_eq _ _ Hle). eexists. split; [reflexivity|]. cbn [sw]. lia.
  - (* a new entry is appended, which is what [aput] does for an absent key *)
    rewrite <- !(aput_absent _ _ _ (proj1 (aget_none_notin _ _) E)).
    destruct seed; eexists; (split; [reflexivity|cbn [sw]; lia]).
Qed.

Lemma ws_upsert_stopped_eq t rq until : wt_ok t -> ws_upsert t rq until WStopped = Ok (wt_remove (q_pid rq) t).
Proof.
  intros Hok. pose proof (osw_le t (q_pid rq) Hok) as Hle. unfold ws_upsert, wt_remove.
  destruct (aget N.eqb (q_pid rq) (wt_peers t)) as [p|]; [|reflexivity]. cbn [osw] in Hle.
  destruct (aswap_remove N.eqb (q_pid rq) (wt_peers t)) as [r ps]. rewrite (dec_seeder_eq _ _ Hle). reflexivity.
Qed.

Theorem ws_upsert_spec t rq until st :
  wt_ok t ->
  exists t', ws_upsert t rq until st = Ok t' /\ wt_ok t'
    /\ forall k, aget N.eqb k (wt_peers t')
                 = if N.eqb k (q_pid rq) then upsert_entry t rq until st else aget N.eqb k (wt_peers t).
Proof.
  intros Hok.
  assert (Hstore : forall seed : bool, exists t', ws_upsert t rq until (if seed then WSeeding else WLeeching) = Ok t' /\ wt_ok t'
            /\ forall k, aget N.eqb k (wt_peers t')
                         = if N.eqb k (q_pid rq) then Some (upsert_record t rq until seed) else aget N.eqb k (wt_peers t)).
  { intros seed. destruct (ws_upsert_store t rq until seed Hok) as (ns & -> & Hns).
    eexists. split; [reflexivity|]. split; [apply wt_put_ok; assumption|intros k; apply aget_aput]. }
  destruct st; [apply (Hstore true)|apply (Hstore false)|].
  rewrite ws_upsert_stopped_eq by exact Hok. eexists. split; [reflexivity|].
  split; [apply wt_remove_ok, Hok|intros k; apply aget_wt_remove, Hok].
Qed.

Lemma removelast_firstn_len {A} (l : list A) : removelast l = firstn (length l - 1) l.
Proof. rewrite Nat.sub_1_r. apply List.removelast_firstn_len. Qed.

Lemma im_range'_window {A} (l : list A) a n : a + n <= length l -> im_range' a (a + n) l = firstn n (skipn a l).
Proof.
  intros H. unfold im_range'. destruct (Nat.leb_spec a (a + n)); [|lia].
  destruct (Nat.leb_spec (a + n) (length l)); [|lia]. cbn. f_equal. lia.
Qed.

(* a swarm too large to hand out whole has room for a window of max / 2 + 1 in each half *)
Lemma ws_half_le max len : max + 1 < len -> max / 2 + 1 <= len / 2.
Proof.
  intros H. replace (max / 2 + 1) with ((max + 1 * 2) / 2) by (apply Nat.div_add; lia). apply Nat.div_le_mono; lia.
Qed.

(* neither subtraction underflows, whatever the table, the sender and the offsets *)
Lemma ws_extract_total peers max sender o1 o2 : exists r, ws_extract peers max sender o1 o2 = Ok r.
Proof.
  unfold ws_extract. destruct (Nat.leb_spec (length peers) (max + 1)) as [|Hgt]; [eauto|].
  pose proof (ws_half_le _ _ Hgt). pose proof (Nat.mul_div_le (length peers) 2).
  rewrite !checked_sub_ok by lia. cbn [obind]. eauto.
Qed.

Theorem ws_extract_spec peers max sender o1 o2 :
  NoDup (wkeys peers) -> In sender (wkeys peers) ->
  exists r, ws_extract peers max sender o1 o2 = Ok r
    /\ NoDup (wkeys r) /\ incl r peers /\ ~ In sender (wkeys r)
    /\ length r = Nat.min max (length peers - 1).
Proof.
  intros Hnd Hin. unfold ws_extract.
  (* the sender filter is [aremove sender] by definition *)
  change (filter _ peers) with (aremove sender peers).
  pose proof (aremove_length sender peers Hnd) as Hlen.
  destruct (aget N.eqb sender peers) as [p|] eqn:Es; [|now apply aget_none_notin in Es].
  destruct (Nat.leb_spec (length peers) (max + 1)) as [Hle|Hgt].
  - (* the whole table without the sender: at most [max] entries, nothing is popped *)
    destruct (Nat.ltb_spec max (length (aremove sender peers))) as [Hlt|Hge]; [lia|].
    eexists. split; [reflexivity|]. split; [apply aremove_nodup, Hnd|]. split; [apply incl_filter|].
    split; [apply aremove_not_in|lia].
  - (* one window of [half] entries from each half of the table, the sender filtered out, cut to [max] *)
    pose proof (ws_half_le _ _ Hgt) as Hh.
    destruct (window_offsets_ok (length peers) (max / 2 + 1) o1 o2 Hh) as (H1 & H2 & H3).
    pose proof (Nat.mul_succ_div_gt max 2) as Hmax.
    rewrite !checked_sub_ok by lia. cbn [obind].
    set (half := max / 2 + 1) in *. set (middle := length peers / 2) in *.
    set (off1 := o1 mod _) in *. set (off2 := middle + _) in *.
    rewrite !im_range'_window by lia. rewrite <- filter_app.
    set (w := firstn half (skipn off1 peers) ++ firstn half (skipn off2 peers)).
    change (filter _ w) with (aremove sender w).
    assert (Hw_nd : NoDup (wkeys w)).
    { unfold wkeys, w. rewrite map_app, <- !firstn_map, <- !skipn_map. apply windows_NoDup; [exact Hnd|lia]. }
    assert (Hw_len : length w = 2 * half) by (unfold w; rewrite app_length, !window_length by lia; lia).
    pose proof (aremove_length sender w Hw_nd) as Hf.
    eexists. split; [reflexivity|]. split; [|split; [|split]].
    + unfold wkeys. rewrite <- firstn_map. apply NoDup_firstn, aremove_nodup, Hw_nd.
    + intros x [Hx _]%incl_firstn%filter_In. apply in_app_or in Hx as [Hx|Hx]; eapply window_incl, Hx.
    + unfold wkeys. rewrite <- firstn_map. intros Hx%incl_firstn. exact (aremove_not_in _ _ Hx).
    + (* the windows hold 2 * half > max entries, at most one of them the sender's: [max] are left *)
      rewrite firstn_length. destruct (aget N.eqb sender w); lia.
Qed.

Definition wmap_ok (m : wmap) : Prop :=
  NoDup (map fst m) /\ forall h t, aget N.eqb h m = Some t -> wt_ok t.

Definition wstate_ok (s : wstate) : Prop := wmap_ok (w4 s) /\ wmap_ok (w6 s).

Lemma wfam_ok s v6 : wstate_ok s -> wmap_ok (wfam s v6).
Proof. intros [A B]. destruct v6; assumption. Qed.

Lemma wt_empty_ok : wt_ok wt_empty.
Proof. split; cbn; [constructor|reflexivity]. Qed.

Lemma winit_ok : wstate_ok winit.
Proof. split; (split; [constructor|discriminate]). Qed.

Lemma wm_get_ok m h : wmap_ok m -> wt_ok (wm_get h m).
Proof.
  intros [_ H]. unfold wm_get. destruct (aget N.eqb h m) as [t|] eqn:E; [apply (H h t E)|apply wt_empty_ok].
Qed.

(* announce and close write one torrent back into its family's map: the state afterwards *)
Lemma store_ok s v6 h t : wstate_ok s -> wt_ok t -> wstate_ok (wset s v6 (aput N.eqb h t (wfam s v6))).
Proof.
  intros Hs Ht. assert (Hm : wmap_ok (aput N.eqb h t (wfam s v6))).
  { destruct (wfam_ok s v6 Hs) as [Hnd H]. split; [apply aput_nodup, Hnd|].
    intros h' t'. rewrite aget_aput. destruct (N.eqb h' h); [intros [= <-]; exact Ht|apply H]. }
  destruct Hs, v6; split; assumption.
Qed.

Lemma aget_store s v6 h t f h2 :
  aget N.eqb h2 (wfam (wset s v6 (aput N.eqb h t (wfam s v6))) f)
  = if Bool.eqb f v6 && N.eqb h2 h then Some t else aget N.eqb h2 (wfam s f).
Proof. destruct v6, f; cbn [wfam wset w4 w6 Bool.eqb andb]; try reflexivity; apply aget_aput. Qed.

Lemma pair_eqb_spec a b : reflect (a = b) (pair_eqb a b).
Proof.
  destruct a as [a1 a2], b as [b1 b2]. unfold pair_eqb. cbn.
  destruct (N.eqb_spec a1 b1), (N.eqb_spec a2 b2); constructor; congruence.
Qed.

(* offers and answers only edit one stored peer's table of pending offers *)
Inductive expect_only (t : wtorrent) : wtorrent -> Prop :=
| eo_same : expect_only t t
| eo_put k p e : aget N.eqb k (wt_peers t) = Some p ->
    expect_only t (mkWt (aput N.eqb k (mkWpeer (w_consumer p) (w_conn p) (w_seeder p) (w_until p) e) (wt_peers t)) (wt_ns t)).

Lemma expect_only_ok t t' : expect_only t t' -> wt_ok t -> wt_ok t'.
Proof.
  intros [|k p e E] Hok; [exact Hok|]. apply wt_put_ok; [exact Hok|]. rewrite E. reflexivity.
Qed.

Lemma zip_offers_expect hash sender u offers recv e :
  exists e' outs, ws_zip_offers hash sender u offers recv e = (e', outs).
Proof. destruct (ws_zip_offers hash sender u offers recv e) as [e' outs]. eauto. Qed.

Lemma zip_offers_outs hash sender u : forall offers recv e,
  snd (ws_zip_offers hash sender u offers recv e)
  = map (fun x => WOffer (w_consumer (snd (snd x))) (w_conn (snd (snd x))) hash sender (fst (fst x)) (snd (fst x)))
        (combine offers recv).
Proof.
  induction offers as [|[oid sdp] ot IH]; intros recv e; cbn; [reflexivity|].
  destruct recv as [|[rpid rp] rt]; cbn; [reflexivity|].
  specialize (IH rt (aput pair_eqb (rpid, oid) u e)).
  destruct (ws_zip_offers hash sender u ot rt (aput pair_eqb (rpid, oid) u e)) as [e' outs]. cbn in *. rewrite IH. reflexivity.
Qed.

Lemma handle_offers_spec cfg t rq now offers o1 o2 :
  exists t' outs, ws_handle_offers cfg t rq now offers o1 o2 = Ok (t', outs) /\ expect_only t t'.
Proof.
  unfold ws_handle_offers.
  destruct (ws_extract_total (wt_peers t) (Nat.min (length offers) (wc_max_offers cfg)) (q_pid rq) o1 o2) as [recv ->].
  cbn [obind]. destruct (aget N.eqb (q_pid rq) (wt_peers t)) as [p|] eqn:E.
  - destruct (ws_zip_offers _ _ _ offers recv (w_expect p)) as [e outs].
    do 2 eexists. split; [reflexivity|apply eo_put, E].
  - do 2 eexists. split; [reflexivity|constructor].
Qed.

Lemma handle_answer_expect_only t rq to_pid oid sdp : expect_only t (fst (ws_handle_answer t rq to_pid oid sdp)).
Proof.
  unfold ws_handle_answer. destruct (aget N.eqb to_pid (wt_peers t)) as [r|] eqn:E; [|constructor].
  destruct (aswap_remove pair_eqb (q_pid rq, oid) (w_expect r)) as [[x|] e]; [apply eo_put, E|constructor].
Qed.

(* the two optional phases of an announce after the upsert, as [ws_announce_gen] writes them *)
Lemma offers_phase_spec cfg st t1 rq now o1 o2 :
  exists t2 outs1,
    match st, q_offers rq with
    | WStopped, _ => Ok (t1, [])
    | _, Some offers => ws_handle_offers cfg t1 rq now offers o1 o2
    | _, None => Ok (t1, [])
    end = Ok (t2, outs1)
    /\ expect_only t1 t2.
Proof.
  assert (Hskip : exists t2 (outs1 : list wout), Ok (t1, []) = Ok (t2, outs1) /\ expect_only t1 t2)
    by (do 2 eexists; split; [reflexivity|constructor]).
  destruct st, (q_offers rq) as [offers|]; (exact Hskip || apply handle_offers_spec).
Qed.

Lemma answer_phase_spec st t2 rq :
  exists t3 outs2,
    match st, q_answer rq with
    | WStopped, _ => (t2, [])
    | _, Some (to_pid, oid, sdp) => ws_handle_answer t2 rq to_pid oid sdp
    | _, None => (t2, [])
    end = (t3, outs2)
    /\ expect_only t2 t3.
Proof.
  assert (Hdone : forall r : wtorrent * list wout, expect_only t2 (fst r) -> exists t3 outs2, r = (t3, outs2) /\ expect_only t2 t3)
    by (intros [t3 outs2] H; eauto).
  destruct st, (q_answer rq) as [[[to_pid oid] sdp]|]; apply Hdone; (constructor || apply handle_answer_expect_only).
Qed.

Lemma wstatus_of_match {A} stopped bleft (a b : A) :
  match wstatus_of stopped bleft with WStopped => a | _ => b end = if stopped then a else b.
Proof. destruct stopped; [reflexivity|]. destruct bleft as [[|?]|]; reflexivity. Qed.

(* The ownership test of an announce whose peer id is stored (storage.rs:
   `request_sender_meta.connection_id != previous_peer.connection_id`).  [lenient_foreign] is the
   code's test: connection ids only, which are unique per socket worker, not across them;
   [strict_foreign] is the intended one: socket worker and connection id. *)
Definition strict_foreign (rq : wreq) (p : wpeer) : bool :=
  negb (N.eqb (q_conn rq) (w_conn p) && N.eqb (q_consumer rq) (w_consumer p)).
Definition lenient_foreign (rq : wreq) (p : wpeer) : bool := negb (N.eqb (q_conn rq) (w_conn p)).

Definition ws_foreign (strict : bool) (rq : wreq) (t : wtorrent) : bool :=
  match aget N.eqb (q_pid rq) (wt_peers t) with
  | Some p => if strict then strict_foreign rq p else lenient_foreign rq p
  | None => false
  end.

(* [ws_announce_gen] writes the two tests as one, switched by [negb strict || _] *)
Lemma ws_foreign_eq strict rq t :
  match aget N.eqb (q_pid rq) (wt_peers t) with
  | Some p => negb (N.eqb (q_conn rq) (w_conn p) && (negb strict || N.eqb (q_consumer rq) (w_consumer p)))
  | None => false
  end = ws_foreign strict rq t.
Proof.
  unfold ws_foreign, lenient_foreign. destruct (aget N.eqb (q_pid rq) (wt_peers t)); [|reflexivity].
  destruct strict; [reflexivity|]. cbn [negb orb]. rewrite Bool.andb_true_r. reflexivity.
Qed.

(* an announce never fails; it stores one torrent [t3] under the announced hash: the old one if the
   ownership test refuses the announce, else the upserted one with at most two pending-offer edits *)
Theorem ws_announce_spec strict cfg s rq now o1 o2 :
  wstate_ok s ->
  let m := wfam s (q_v6 rq) in
  let t := wm_get (q_hash rq) m in
  let st := wstatus_of (q_stopped rq) (q_left rq) in
  exists t3 outs,
    ws_announce_gen strict cfg s rq now o1 o2 = Ok (wset s (q_v6 rq) (aput N.eqb (q_hash rq) t3 m), outs)
    /\ wt_ok t /\ wt_ok t3
    /\ (ws_foreign strict rq t = true /\ t3 = t
        \/ ws_foreign strict rq t = false
           /\ exists t1 t2, ws_upsert t rq (valid_until_new now (wc_max_peer_age cfg)) st = Ok t1
                /\ expect_only t1 t2 /\ expect_only t2 t3).
Proof.
  intros Hs m t st. unfold ws_announce_gen. fold m t st. rewrite ws_foreign_eq.
  pose proof (wm_get_ok _ (q_hash rq) (wfam_ok s (q_v6 rq) Hs) : wt_ok t) as Ht.
  destruct (ws_foreign strict rq t); [do 2 eexists; split; [reflexivity|auto]|].
  destruct (ws_upsert_spec t rq (valid_until_new now (wc_max_peer_age cfg)) st Ht) as (t1 & Hu & Ht1 & _).
  rewrite Hu. cbn [obind].
  destruct (offers_phase_spec cfg st t1 rq now o1 o2) as (t2 & outs1 & -> & H12). cbn [obind].
  destruct (answer_phase_spec st t2 rq) as (t3 & outs2 & -> & H23).
  pose proof (expect_only_ok _ _ H23 (expect_only_ok _ _ H12 Ht1)) as Ht3.
  rewrite checked_sub_ok by (rewrite (proj2 Ht3); apply wcount_le). cbn [obind].
  do 2 eexists. split; [reflexivity|]. split; [exact Ht|]. split; [exact Ht3|]. right. split; [reflexivity|].
  exists t1, t2. auto.
Qed.

Theorem ws_announce_ok strict cfg s rq now o1 o2 :
  wstate_ok s -> exists s' outs, ws_announce_gen strict cfg s rq now o1 o2 = Ok (s', outs) /\ wstate_ok s'.
Proof.
  intros Hs. destruct (ws_announce_spec strict cfg s rq now o1 o2 Hs) as (t3 & outs & -> & _ & Ht3 & _).
  do 2 eexists. split; [reflexivity|apply store_ok; assumption].
Qed.

Lemma ws_scrape_loop_total m hs : forall acc, wmap_ok m -> exists files, ws_scrape_loop m hs acc = Ok files.
Proof.
  induction hs as [|h t IH]; intros acc Hm; cbn [ws_scrape_loop]; [eauto|].
  destruct (aget N.eqb h m) as [tor|] eqn:E; [|apply IH, Hm].
  rewrite checked_sub_ok by (rewrite (proj2 (proj2 Hm h tor E)); apply wcount_le). cbn [obind]. apply IH, Hm.
Qed.

Lemma ws_scrape_total cfg s consumer conn v6 hashes : wstate_ok s -> exists outs, ws_scrape cfg s consumer conn v6 hashes = Ok outs.
Proof.
  intros Hs. unfold ws_scrape. destruct hashes as [hs|]; [|eauto].
  destruct (ws_scrape_loop_total (wfam s v6) (firstn (Nat.min (length hs) (wc_max_scrape cfg)) hs) [] (wfam_ok s v6 Hs)) as [files ->].
  cbn [obind]. eauto.
Qed.

Lemma wset_same s v6 h t : aget N.eqb h (wfam s v6) = Some t -> wset s v6 (aput N.eqb h t (wfam s v6)) = s.
Proof. intros E. rewrite (aput_same_value _ _ _ E). destruct s, v6; reflexivity. Qed.

(* handle_connection_closed *)
Lemma ws_closed_eq s v6 h pid :
  wstate_ok s ->
  ws_closed s v6 h pid = Ok match aget N.eqb h (wfam s v6) with
                            | Some t => wset s v6 (aput N.eqb h (wt_remove pid t) (wfam s v6))
                            | None => s
                            end.
Proof.
  intros Hs. unfold ws_closed. destruct (aget N.eqb h (wfam s v6)) as [t|] eqn:Et; [|reflexivity].
  pose proof (osw_le t pid (proj2 (wfam_ok s v6 Hs) h t Et)) as Hle. unfold wt_remove.
  rewrite <- (aswap_remove_fst N.eqb pid (wt_peers t)) in *.
  destruct (aswap_remove N.eqb pid (wt_peers t)) as [[p|] ps]; cbn [fst snd osw] in *.
  - rewrite (dec_seeder_eq _ _ Hle). reflexivity.
  - rewrite (wset_same _ _ _ _ Et). reflexivity.
Qed.

Lemma ws_closed_ok s v6 h pid : wstate_ok s -> exists s', ws_closed s v6 h pid = Ok s' /\ wstate_ok s'.
Proof.
  intros Hs. rewrite ws_closed_eq by exact Hs. eexists. split; [reflexivity|].
  destruct (aget N.eqb h (wfam s v6)) as [t|] eqn:Et; [|exact Hs].
  apply store_ok; [exact Hs|]. apply wt_remove_ok, (proj2 (wfam_ok s v6 Hs) h t Et).
Qed.

Lemma ws_closed_get s v6 h pid s' :
  wstate_ok s -> ws_closed s v6 h pid = Ok s' ->
  forall f h2, aget N.eqb h2 (wfam s' f)
               = if Bool.eqb f v6 && N.eqb h2 h then option_map (wt_remove pid) (aget N.eqb h (wfam s v6))
                 else aget N.eqb h2 (wfam s f).
Proof.
  intros Hs Hc f h2. rewrite ws_closed_eq in Hc by exact Hs. injection Hc as <-.
  destruct (aget N.eqb h (wfam s v6)) as [t|] eqn:Et; [apply aget_store|].
  destruct (Bool.eqb_spec f v6) as [->|]; [|reflexivity]. destruct (N.eqb_spec h2 h) as [->|]; [exact Et|reflexivity].
Qed.

(* the peer entries of a swarm worker: (family, torrent, peer id) |-> record *)
Definition wentry (s : wstate) (f : bool) (h pid : N) (p : wpeer) : Prop :=
  exists t, aget N.eqb h (wfam s f) = Some t /\ aget N.eqb pid (wt_peers t) = Some p.

Lemma wentry_wm_get s f h pid p : aget N.eqb pid (wt_peers (wm_get h (wfam s f))) = Some p -> wentry s f h pid p.
Proof. unfold wm_get, wentry. destruct (aget N.eqb h (wfam s f)) as [t|]; [eauto|discriminate]. Qed.

Lemma wentry_store s v6 h t f h2 pid p :
  wentry (wset s v6 (aput N.eqb h t (wfam s v6))) f h2 pid p
  <-> if Bool.eqb f v6 && N.eqb h2 h then aget N.eqb pid (wt_peers t) = Some p else wentry s f h2 pid p.
Proof.
  unfold wentry. rewrite aget_store. destruct (_ && _); [|reflexivity].
  split; [intros (t0 & [= <-] & H); exact H|eauto].
Qed.

Lemma ws_closed_entries s v6 h pid s' :
  wstate_ok s -> ws_closed s v6 h pid = Ok s' ->
  forall f h2 pid2 p, wentry s' f h2 pid2 p -> wentry s f h2 pid2 p /\ ~ (f = v6 /\ h2 = h /\ pid2 = pid).
Proof.
  intros Hs Hc f h2 pid2 p (t' & H1 & H2). rewrite (ws_closed_get _ _ _ _ _ Hs Hc) in H1.
  destruct (Bool.eqb_spec f v6) as [->|]; [|split; [exists t'; auto|tauto]].
  destruct (N.eqb_spec h2 h) as [->|]; [|split; [exists t'; auto|tauto]]. cbn [andb] in H1.
  destruct (aget N.eqb h (wfam s v6)) as [t|] eqn:Et; [|discriminate]. injection H1 as <-.
  rewrite aget_wt_remove in H2 by apply (proj2 (wfam_ok s v6 Hs) _ _ Et).
  destruct (N.eqb_spec pid2 pid); [discriminate|]. split; [exists t; auto|tauto].
Qed.

(* cleaning (C10): exactly the peers (and pending offers) with a future deadline stay *)
Definition clean_peer (now : N) (e : N * wpeer) : N * wpeer :=
  (fst e, mkWpeer (w_consumer (snd e)) (w_conn (snd e)) (w_seeder (snd e)) (w_until (snd e))
                  (filter (fun x => vu_valid (snd x) now) (w_expect (snd e)))).

Definition cleaned_peers (now : N) (ps : list (N * wpeer)) : list (N * wpeer) :=
  map (clean_peer now) (filter (fun e => vu_valid (w_until (snd e)) now) ps).

Lemma cleaned_peers_cons now e ps :
  cleaned_peers now (e :: ps)
  = if vu_valid (w_until (snd e)) now then clean_peer now e :: cleaned_peers now ps else cleaned_peers now ps.
Proof. unfold cleaned_peers. cbn [filter]. destruct (vu_valid (w_until (snd e)) now); reflexivity. Qed.

(* the counter is carried as (stored seeders + extra): no subtraction, no underflow *)
Lemma ws_clean_peers_eq now ps : forall ns extra, ns = wcount ps + extra ->
  ws_clean_peers now ps ns = Ok (cleaned_peers now ps, wcount (cleaned_peers now ps) + extra).
Proof.
  induction ps as [|[pid p] t IH]; intros ns extra ->; cbn [ws_clean_peers]; [reflexivity|].
  rewrite cleaned_peers_cons, wcount_cons. cbn [snd].
  destruct (vu_valid (w_until p) now); cbn [negb andb obind].
  - rewrite (IH _ (sw (w_seeder p) + extra)) by lia. cbn [obind]. rewrite wcount_cons.
    cbn [snd clean_peer w_seeder]. f_equal. f_equal. lia.
  - rewrite (dec_seeder_eq (w_seeder p)) by lia. cbn [obind]. rewrite (IH _ extra) by lia. reflexivity.
Qed.

Lemma cleaned_nodup now ps : NoDup (wkeys ps) -> NoDup (wkeys (cleaned_peers now ps)).
Proof. unfold cleaned_peers, wkeys. rewrite map_map. apply (NoDup_map_filter fst). Qed.

(* what a cleaning pass makes of a torrent map: every torrent is cleaned; the forbidden ones and
   those left without peers go *)
Definition clean_torrent (now : N) (t : wtorrent) : wtorrent :=
  mkWt (cleaned_peers now (wt_peers t)) (wcount (cleaned_peers now (wt_peers t))).

Definition cleaned_fam (now : N) (mode : acl_mode) (acl : list N) (m : wmap) : wmap :=
  filter (fun e => allows mode acl (fst e) && match wt_peers (snd e) with [] => false | _ => true end)
    (map (fun e => (fst e, clean_torrent now (snd e))) m).

Lemma ws_clean_fam_eq now mode acl m :
  (forall h t, In (h, t) m -> wt_ns t = wcount (wt_peers t)) ->
  ws_clean_fam now mode acl m = Ok (cleaned_fam now mode acl m).
Proof.
  unfold cleaned_fam. induction m as [|[h t] r IH]; intros H; cbn [ws_clean_fam filter map fst snd]; [reflexivity|].
  rewrite IH by (intros h' t' Hin; apply (H h' t'); right; exact Hin).
  destruct (allows mode acl h); cbn [negb andb]; [|reflexivity].
  rewrite (ws_clean_peers_eq now (wt_peers t) (wt_ns t) 0) by (rewrite (H h t (or_introl eq_refl)); lia).
  cbn [obind]. unfold clean_torrent. cbn [wt_peers].
  rewrite Nat.add_0_r. destruct (cleaned_peers now (wt_peers t)); reflexivity.
Qed.

Definition clean_result (now : N) (mode : acl_mode) (acl : list N) (h : N) (t : wtorrent) : option wtorrent :=
  if allows mode acl h
  then match cleaned_peers now (wt_peers t) with [] => None | ps => Some (mkWt ps (wcount ps)) end
  else None.

Lemma aget_cleaned_fam now mode acl m h :
  NoDup (map fst m) ->
  aget N.eqb h (cleaned_fam now mode acl m) = match aget N.eqb h m with Some t => clean_result now mode acl h t | None => None end.
Proof.
  intros Hnd. unfold cleaned_fam. rewrite (aget_pass _ (fun _ => clean_torrent now) h m Hnd).
  destruct (aget N.eqb h m) as [t|]; [|reflexivity]. unfold clean_result, clean_torrent. cbn [fst snd wt_peers].
  destruct (allows mode acl h); [|reflexivity]. destruct (cleaned_peers now (wt_peers t)); reflexivity.
Qed.

Lemma ws_clean_fam_ok now mode acl m :
  wmap_ok m -> exists m', ws_clean_fam now mode acl m = Ok m' /\ wmap_ok m'
    /\ forall h, aget N.eqb h m' = match aget N.eqb h m with Some t => clean_result now mode acl h t | None => None end.
Proof.
  intros [Hnd Hall]. exists (cleaned_fam now mode acl m).
  split; [apply ws_clean_fam_eq; intros h t Hin; apply (Hall h t), (in_aget _ _ _ Hnd Hin)|].
  pose proof (fun h => aget_cleaned_fam now mode acl m h Hnd) as Hget.
  split; [split; [exact (pass_nodup _ (fun _ => clean_torrent now) m Hnd)|]|exact Hget].
  intros h t'. rewrite Hget. destruct (aget N.eqb h m) as [t|] eqn:E; [|discriminate].
  unfold clean_result. destruct (allows mode acl h); [|discriminate].
  pose proof (cleaned_nodup now _ (proj1 (Hall h t E))) as Hc.
  destruct (cleaned_peers now (wt_peers t)); [discriminate|]. intros [= <-]. split; [exact Hc|reflexivity].
Qed.

Theorem ws_step_ok strict cfg s op :
  wstate_ok s -> exists s' outs, ws_step_gen strict cfg s op = Ok (s', outs) /\ wstate_ok s'.
Proof.
  intros Hs. destruct op as [rq now o1 o2|c k v6 hs|v6 h pid|now mode acl]; cbn [ws_step_gen].
  - apply ws_announce_ok, Hs.
  - destruct (ws_scrape_total cfg s c k v6 hs Hs) as [outs ->]. cbn [obind]. eauto.
  - destruct (ws_closed_ok s v6 h pid Hs) as (s' & -> & Hs'). cbn [obind]. eauto.
  - destruct Hs as [H4 H6].
    destruct (ws_clean_fam_ok now mode acl (w4 s) H4) as (m4 & -> & Hm4 & _).
    destruct (ws_clean_fam_ok now mode acl (w6 s) H6) as (m6 & -> & Hm6 & _).
    cbn [obind]. do 2 eexists. split; [reflexivity|split; assumption].
Qed.
