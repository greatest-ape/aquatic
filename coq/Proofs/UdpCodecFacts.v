(* C13: the udp codec model.  What parse_request does is stated per action for ANY layouts record;
   round trips, acceptance of conforming datagrams and rejections follow. *)
From Aquatic Require Import ListFacts LayoutFacts UdpCodec Bep15.
Local Open Scope N_scope.

Definition bep15_layouts : layouts :=
  mkLayouts bep15_announce_request bep15_connect_response bep15_announce_fixed bep15_scrape_stats bep15_peer
            bep15_protocol_id.

Notation L := bep15_layouts.

Lemma i32_be_length z : length (i32_be z) = 4%nat. Proof. apply be_enc_length. Qed.
Lemma i64_be_length z : length (i64_be z) = 8%nat. Proof. apply be_enc_length. Qed.

Lemma rd_i32_be z : signed_ok 4 z -> rd_i32 (i32_be z) = z. Proof. apply be_signed_roundtrip. Qed.
Lemma rd_i64_be z : signed_ok 8 z -> rd_i64 (i64_be z) = z. Proof. apply be_signed_roundtrip. Qed.

(* what fits a signed byte fits every wider signed integer: the action words 0..3 *)
Lemma signed_ok_small w z : (0 < w)%nat -> (0 <= z < 128)%Z -> signed_ok w z.
Proof.
  intros Hw Hz. unfold signed_ok, zpow256. destruct w as [|w]; [lia|].
  rewrite pow256_S. pose proof (pow256_pos w). lia.
Qed.

(* the 16-byte request header, 8 bytes | action | transaction id, and what the parser's reads find in it *)
Lemma header_16 {A} (a b c r : list A) (bytes := a ++ b ++ c ++ r) :
  length a = 8%nat -> length b = 4%nat -> length c = 4%nat ->
  firstn 8 bytes = a /\ firstn 4 (skipn 8 bytes) = b /\ firstn 4 (skipn 12 bytes) = c /\ skipn 16 bytes = r
  /\ length bytes = (16 + length r)%nat.
Proof.
  intros Ha Hb Hc. subst bytes.
  (* the deeper reads skip a first, then b, then c *)
  rewrite <- (skipn_skipn 4 8 (a ++ _)), <- (skipn_skipn 8 8 (a ++ _)).
  rewrite (firstn_app_exact a _ 8 Ha), (skipn_app_exact a _ 8 Ha), <- (skipn_skipn 4 4 (b ++ _)).
  rewrite (firstn_app_exact b _ 4 Hb), (skipn_app_exact b _ 4 Hb).
  rewrite (firstn_app_exact c _ 4 Hc), (skipn_app_exact c _ 4 Hc).
  rewrite !app_length, Ha, Hb, Hc. repeat split.
Qed.

Theorem rejects_short LY bytes max : (length bytes < 12)%nat -> parse_request LY bytes max = PErr Unsendable.
Proof. intros H. unfold parse_request. destruct (Nat.ltb_spec (length bytes) 12); [reflexivity|lia]. Qed.

Theorem rejects_unknown_action LY bytes max :
  let a := rd_i32 (firstn 4 (skipn 8 bytes)) in
  a <> 0%Z -> a <> 1%Z -> a <> 2%Z -> parse_request LY bytes max = PErr Unsendable.
Proof.
  intros a H0 H1 H2. unfold parse_request. destruct (length bytes <? 12)%nat; [reflexivity|].
  fold a. destruct (Z.eqb_spec a 0); [contradiction|]. destruct (Z.eqb_spec a 1); [contradiction|].
  destruct (Z.eqb_spec a 2); [contradiction|]. reflexivity.
Qed.

Lemma parse_request_connect LY bytes max :
  rd_i32 (firstn 4 (skipn 8 bytes)) = 0%Z ->
  parse_request LY bytes max =
    if (length bytes <? 16)%nat then PErr Unsendable
    else if N.eqb (be_dec (firstn 8 bytes)) (L_protocol_id LY)
         then POk (RConnect (rd_i32 (firstn 4 (skipn 12 bytes)))) else PErr Unsendable.
Proof.
  intros Ha. unfold parse_request. rewrite Ha. cbn [Z.eqb].
  destruct (Nat.ltb_spec (length bytes) 12), (Nat.ltb_spec (length bytes) 16); try reflexivity; lia.
Qed.

(* a layout of at least 12 bytes: the (length < 12) test is subsumed by the struct read *)
Lemma parse_request_announce LY bytes max :
  rd_i32 (firstn 4 (skipn 8 bytes)) = 1%Z -> (12 <= layout_size 4 (L_announce_request LY))%nat ->
  parse_request LY bytes max =
    match dec_prefix 4 (L_announce_request LY) bytes with
    | None => PErr Unsendable
    | Some (vs, _) =>
        if Z.eqb (int_of (field_at (L_announce_request LY) vs "port")) 0
        then PErr (Sendable (int_of (field_at (L_announce_request LY) vs "connection_id"))
                            (int_of (field_at (L_announce_request LY) vs "transaction_id")) 1)
        else POk (RAnnounce vs)
    end.
Proof.
  intros Ha Hs. unfold parse_request. rewrite Ha. cbn [Z.eqb].
  destruct (Nat.ltb_spec (length bytes) 12); [|reflexivity].
  rewrite dec_prefix_short by lia. reflexivity.
Qed.

Lemma parse_request_scrape LY bytes max :
  rd_i32 (firstn 4 (skipn 8 bytes)) = 2%Z ->
  parse_request LY bytes max =
    if (length bytes <? 16)%nat then PErr Unsendable
    else
      let cid := rd_i64 (firstn 8 bytes) in
      let tid := rd_i32 (firstn 4 (skipn 12 bytes)) in
      let rest := skipn 16 bytes in
      match rest with
      | [] => PErr (Sendable cid tid 2)
      | _ => if negb (Nat.eqb (length rest mod 20) 0) then PErr (Sendable cid tid 3)
             else let hs := chunks (length rest) 20 rest in
                  POk (RScrape cid tid (firstn (Nat.min max (length hs)) hs))
      end.
Proof.
  intros Ha. unfold parse_request. rewrite Ha. cbn [Z.eqb].
  destruct (Nat.ltb_spec (length bytes) 12), (Nat.ltb_spec (length bytes) 16); try reflexivity; lia.
Qed.

Theorem rejects_short_connect_or_scrape LY bytes max :
  let a := rd_i32 (firstn 4 (skipn 8 bytes)) in
  (a = 0%Z \/ a = 2%Z) -> (length bytes < 16)%nat -> parse_request LY bytes max = PErr Unsendable.
Proof.
  intros a Ha Hl. apply Nat.ltb_lt in Hl. destruct Ha as [Ha|Ha].
  - rewrite (parse_request_connect _ _ _ Ha), Hl. reflexivity.
  - rewrite (parse_request_scrape _ _ _ Ha), Hl. reflexivity.
Qed.

Theorem rejects_wrong_protocol_id LY bytes max :
  rd_i32 (firstn 4 (skipn 8 bytes)) = 0%Z -> be_dec (firstn 8 bytes) <> L_protocol_id LY ->
  parse_request LY bytes max = PErr Unsendable.
Proof.
  intros Ha Hp. rewrite (parse_request_connect _ _ _ Ha). apply N.eqb_neq in Hp. rewrite Hp.
  destruct (length bytes <? 16)%nat; reflexivity.
Qed.

Theorem rejects_short_announce LY bytes max :
  rd_i32 (firstn 4 (skipn 8 bytes)) = 1%Z -> (12 <= layout_size 4 (L_announce_request LY))%nat ->
  (length bytes < layout_size 4 (L_announce_request LY))%nat -> parse_request LY bytes max = PErr Unsendable.
Proof. intros Ha Hs Hl. rewrite (parse_request_announce _ _ _ Ha Hs), (dec_prefix_short _ _ _ Hl). reflexivity. Qed.

(* what each result says about the datagram it was parsed from: where its transaction id was read
   (bytes 12..16, or the field of the announce struct), that a connect or scrape has its 16-byte
   header, and which chunks of the datagram a scrape lists *)
Definition parse_facts (LY : layouts) (bytes : list N) (max : nat) (rq : presult request) : Prop :=
  let tid12 := rd_i32 (firstn 4 (skipn 12 bytes)) in
  let decoded vs := exists rest, dec_prefix 4 (L_announce_request LY) bytes = Some (vs, rest) in
  match rq with
  | POk (RConnect tid) => tid = tid12 /\ (16 <= length bytes)%nat
  | POk (RAnnounce vs) => decoded vs
  | POk (RScrape _ tid hs) =>
      let rest := skipn 16 bytes in
      let cs := chunks (length rest) 20 rest in
      tid = tid12 /\ (16 <= length bytes)%nat /\ (length rest mod 20 = 0)%nat
      /\ hs = firstn (Nat.min max (length cs)) cs
  | PErr (Sendable _ tid _) =>
      tid = tid12 \/ exists vs, decoded vs /\ tid = int_of (field_at (L_announce_request LY) vs "transaction_id")
  | PErr Unsendable => True
  end.

Lemma parse_cases LY bytes max : parse_facts LY bytes max (parse_request LY bytes max).
Proof.
  unfold parse_request.
  destruct (length bytes <? 12)%nat; [exact I|].
  destruct (Z.eqb _ 0).
  {
    destruct (Nat.ltb_spec (length bytes) 16); [exact I|].
    destruct (N.eqb _ _); [split; [reflexivity|assumption]|exact I]. }
  destruct (Z.eqb _ 1).
  { (* announce: accepted, or refused for its port with the struct's own transaction id *)
    destruct (dec_prefix 4 _ bytes) as [[vs rest]|] eqn:Ed; [|exact I].
    assert (Hvs : exists rest, dec_prefix 4 (L_announce_request LY) bytes = Some (vs, rest)) by (exists rest; exact Ed).
    destruct (Z.eqb _ 0); [right; exists vs; split; [exact Hvs|reflexivity]|exact Hvs]. }
  destruct (Z.eqb _ 2); [|exact I].
  (* scrape: refused for an empty or ragged hash list with the id at bytes 12..16, or accepted *)
  destruct (Nat.ltb_spec (length bytes) 16); [exact I|].
  destruct (skipn 16 bytes) as [|b rest'] eqn:Er; [left; reflexivity|]. rewrite <- Er.
  destruct (Nat.eqb_spec (length (skipn 16 bytes) mod 20) 0); [|left; reflexivity].
  repeat split; assumption.
Qed.

Theorem roundtrip_connect LY tid max :
  L_protocol_id LY < pow256 8 -> signed_ok 4 tid ->
  parse_request LY (write_request LY (RConnect tid)) max = POk (RConnect tid).
Proof.
  intros Hp H. unfold write_request. rewrite <- (app_nil_r (i32_be tid)).
  destruct (header_16 (be_enc 8 (L_protocol_id LY)) (i32_be 0) (i32_be tid) [])
    as (E1 & E2 & E3 & _ & E5); [apply be_enc_length|apply i32_be_length|apply i32_be_length|].
  rewrite parse_request_connect by (rewrite E2; apply rd_i32_be, signed_ok_small; lia).
  rewrite E5, E1, E3, (be_dec_enc 8 _ Hp), N.eqb_refl, (rd_i32_be tid H). reflexivity.
Qed.

Definition announce_wf (vs : list fval) : Prop := wf_vals 4 bep15_announce_request vs.

(* the announce layout has its action, an enum whose only value is 1, at offset 8 *)
Definition action_at_8 (l : layout) : Prop :=
  exists name ds, field_offset 4 l name = Some (8%nat, FEnum ds) /\ forall z, enum_valid ds z = true -> z = 1%Z.

(* the bytes of a well-formed announce struct, whatever follows them: only the port decides *)
Theorem parse_encoded_announce LY vs ext max :
  action_at_8 (L_announce_request LY) -> wf_vals 4 (L_announce_request LY) vs ->
  parse_request LY (enc_struct (L_announce_request LY) vs ++ ext) max =
    if Z.eqb (int_of (field_at (L_announce_request LY) vs "port")) 0
    then PErr (Sendable (int_of (field_at (L_announce_request LY) vs "connection_id"))
                        (int_of (field_at (L_announce_request LY) vs "transaction_id")) 1)
    else POk (RAnnounce vs).
Proof.
  intros (name & ds & Hoff & Hds) H.
  pose proof (dec_enc_struct 4 _ vs ext H) as Hd.
  rewrite parse_request_announce, Hd; [reflexivity| |].
  - apply Hds, (dec_prefix_enum Hd Hoff).
  - apply field_offset_bound in Hoff. cbn [fwidth] in Hoff. lia.
Qed.

Theorem rejects_bad_enum LY bytes max name off ds :
  rd_i32 (firstn 4 (skipn 8 bytes)) = 1%Z -> (12 <= layout_size 4 (L_announce_request LY))%nat ->
  field_offset 4 (L_announce_request LY) name = Some (off, FEnum ds) ->
  enum_valid ds (rd_i32 (firstn 4 (skipn off bytes))) = false ->
  parse_request LY bytes max = PErr Unsendable.
Proof.
  intros Ha Hs Hoff Hev. rewrite (parse_request_announce LY _ _ Ha Hs).
  destruct (dec_prefix 4 (L_announce_request LY) bytes) as [[vs rest]|] eqn:E; [|reflexivity].
  rewrite (dec_prefix_enum E Hoff) in Hev. discriminate.
Qed.

Lemma bep15_announce_size : layout_size 4 (L_announce_request L) = 98%nat. Proof. reflexivity. Qed.

Lemma bep15_peer_size v6 : layout_size (ipw v6) bep15_peer = if v6 then 18%nat else 6%nat.
Proof. destruct v6; reflexivity. Qed.

Lemma bep15_action_at_8 : action_at_8 bep15_announce_request.
Proof.
  exists "action_placeholder"%string, bep15_announce_action. split; [reflexivity|].
  intros z H. unfold enum_valid in H. cbn [existsb bep15_announce_action snd] in H.
  rewrite orb_false_r in H. symmetry. apply Z.eqb_eq, H.
Qed.

Lemma announce_tid_at_12 bytes vs rest :
  dec_prefix 4 bep15_announce_request bytes = Some (vs, rest) ->
  int_of (field_at bep15_announce_request vs "transaction_id") = rd_i32 (firstn 4 (skipn 12 bytes)).
Proof.
  intros H. destruct (dec_prefix_field (name := "transaction_id") (off := 12%nat) (t := FI32) H eq_refl) as (v & -> & [= <-]).
  reflexivity.
Qed.

Lemma chunks_nil fuel n : chunks fuel n [] = [].
Proof. destruct fuel; reflexivity. Qed.

Lemma chunks_count fuel n : forall l, (0 < n)%nat -> (n * length (chunks fuel n l) <= length l + n - 1)%nat.
Proof.
  induction fuel as [|f IH]; intros l Hn; cbn [chunks length]; [lia|].
  destruct l as [|x l']; [cbn [length]; lia|].
  set (l := x :: l') in *. cbn [length].
  destruct (Nat.le_gt_cases n (length l)) as [Hge|Hlt].
  - specialize (IH (skipn n l) Hn). rewrite skipn_length in IH. lia.
  - rewrite (skipn_all2 l) by lia. rewrite chunks_nil. subst l. cbn [length] in *. lia.
Qed.

Lemma chunks_each fuel n : forall l, Forall (fun c => length c <= n)%nat (chunks fuel n l).
Proof.
  induction fuel as [|f IH]; intros l; cbn [chunks]; [constructor|].
  destruct l as [|x l']; constructor; [|apply IH].
  rewrite firstn_length. lia.
Qed.

Lemma chunks_concat_n n (cs : list (list N)) : forall fuel,
  (0 < n)%nat -> Forall (fun c => length c = n) cs -> (length cs <= fuel)%nat -> chunks fuel n (concat cs) = cs.
Proof.
  induction cs as [|c t IH]; intros fuel Hn Hall Hf; cbn [concat].
  - destruct fuel; reflexivity.
  - inversion Hall as [|? ? Hc Ht]; subst. destruct fuel as [|fuel]; [cbn in Hf; lia|].
    cbn [chunks]. destruct (c ++ concat t) eqn:E.
    + destruct c; [cbn in Hn; lia|discriminate].
    + rewrite <- E. rewrite (firstn_app_exact c _ _ eq_refl), (skipn_app_exact c _ _ eq_refl).
      rewrite IH; [reflexivity|exact Hn|exact Ht|cbn in Hf; lia].
Qed.

(* a scrape datagram with a valid header: only the hash list decides *)
Theorem parse_scrape_datagram LY cid tid rest max :
  signed_ok 8 cid -> signed_ok 4 tid ->
  parse_request LY (i64_be cid ++ i32_be 2 ++ i32_be tid ++ rest) max =
    match rest with
    | [] => PErr (Sendable cid tid 2)
    | _ => if negb (Nat.eqb (length rest mod 20) 0) then PErr (Sendable cid tid 3)
           else let hs := chunks (length rest) 20 rest in
                POk (RScrape cid tid (firstn (Nat.min max (length hs)) hs))
    end.
Proof.
  intros Hc Ht.
  destruct (header_16 (i64_be cid) (i32_be 2) (i32_be tid) rest)
    as (E1 & E2 & E3 & E4 & E5); [apply i64_be_length|apply i32_be_length|apply i32_be_length|].
  rewrite parse_request_scrape by (rewrite E2; apply rd_i32_be, signed_ok_small; lia).
  rewrite E5, E1, E3, E4, (rd_i64_be cid Hc), (rd_i32_be tid Ht). reflexivity.
Qed.

Theorem roundtrip_scrape LY cid tid hs max :
  signed_ok 8 cid -> signed_ok 4 tid -> hs <> [] -> Forall (fun h => length h = 20%nat) hs ->
  parse_request LY (write_request LY (RScrape cid tid hs)) max
  = POk (RScrape cid tid (firstn (Nat.min max (length hs)) hs)).
Proof.
  intros Hc Ht Hne Hall. unfold write_request. rewrite (parse_scrape_datagram LY cid tid _ max Hc Ht).
  pose proof (concat_length_n 20 hs Hall) as HD.
  (* the bytes written after the header are not empty: hs is not, and a hash has 20 bytes *)
  destruct (concat hs) eqn:E.
  { destruct hs; [congruence|cbn in HD; lia]. }
  rewrite <- E in HD |- *.
  rewrite HD, Nat.mul_comm, Nat.mod_mul by lia. cbn [Nat.eqb negb].
  rewrite chunks_concat_n; [reflexivity|lia|exact Hall|lia].
Qed.

Lemma scrape_request_length LY cid tid hs :
  Forall (fun h => length h = 20%nat) hs -> length (write_request LY (RScrape cid tid hs)) = (16 + 20 * length hs)%nat.
Proof.
  intros H. unfold write_request. rewrite !app_length, i64_be_length, !i32_be_length, (concat_length_n 20 _ H). lia.
Qed.

Theorem rejects_empty_scrape LY cid tid max :
  signed_ok 8 cid -> signed_ok 4 tid ->
  parse_request LY (i64_be cid ++ i32_be 2 ++ i32_be tid) max = PErr (Sendable cid tid 2).
Proof. intros Hc Ht. rewrite <- (app_nil_r (i32_be tid)). exact (parse_scrape_datagram LY cid tid [] max Hc Ht). Qed.

Theorem rejects_bad_hash_list LY cid tid rest max :
  signed_ok 8 cid -> signed_ok 4 tid -> rest <> [] -> (length rest mod 20 <> 0)%nat ->
  parse_request LY (i64_be cid ++ i32_be 2 ++ i32_be tid ++ rest) max = PErr (Sendable cid tid 3).
Proof.
  intros Hc Ht Hne Hmod. rewrite (parse_scrape_datagram LY cid tid rest max Hc Ht).
  destruct rest; [congruence|]. apply Nat.eqb_neq in Hmod. rewrite Hmod. reflexivity.
Qed.

Lemma dec_array_roundtrip w l items :
  (0 < layout_size w l)%nat -> Forall (wf_vals w l) items ->
  dec_array w l (concat (map (enc_struct l) items)) = Some items.
Proof.
  intros Hs Hall. unfold dec_array.
  destruct (Nat.eqb_spec (layout_size w l) 0); [lia|].
  assert (Hlens : Forall (fun c => length c = layout_size w l) (map (enc_struct l) items))
    by (apply Forall_map; revert Hall; apply Forall_impl, enc_struct_length).
  rewrite (concat_length_n _ _ Hlens), map_length, Nat.mul_comm, Nat.mod_mul by lia.
  cbn [Nat.eqb negb].
  rewrite chunks_concat_n; [|lia|exact Hlens|rewrite map_length; nia].
  induction Hall as [|vs t Hvs _ IH]; cbn [map]; [reflexivity|].
  rewrite (dec_enc_struct_nil w l vs Hvs).
  inversion Hlens; subst. rewrite IH by assumption. reflexivity.
Qed.

(* a reply is its action word, then its body; the transaction id of a scrape or error reply stands in
   front of the body in the same way: the three things parse_response asks of such bytes *)
Lemma read_i32_front z rest (bytes := i32_be z ++ rest) : signed_ok 4 z ->
  (length bytes <? 4)%nat = false /\ rd_i32 (firstn 4 bytes) = z /\ skipn 4 bytes = rest.
Proof.
  intros H. subst bytes. rewrite app_length, i32_be_length.
  rewrite (firstn_app_exact _ _ 4 (i32_be_length z)), (skipn_app_exact _ _ 4 (i32_be_length z)), (rd_i32_be z H).
  repeat split.
Qed.

Theorem roundtrip_connect_response LY vs v6 :
  wf_vals 4 (L_connect_response LY) vs ->
  parse_response LY (write_response LY (SConnect vs)) v6 = Some (SConnect vs).
Proof.
  intros H. unfold parse_response, write_response.
  destruct (read_i32_front 0 (enc_struct (L_connect_response LY) vs)) as (-> & -> & ->); [apply signed_ok_small; lia|].
  cbn [Z.eqb].
  rewrite (enc_struct_length 4 _ _ H), Nat.eqb_refl, (dec_enc_struct_nil 4 _ vs H). reflexivity.
Qed.

Definition peer_layout_size (v6 : bool) : nat := layout_size (ipw v6) bep15_peer.

(* one proof for both address families: the peer array is read with the width it was written with *)
Theorem roundtrip_announce_response LY v6 fixed peers :
  (0 < layout_size (ipw v6) (L_peer LY))%nat ->
  wf_vals 4 (L_announce_fixed LY) fixed -> Forall (wf_vals (ipw v6) (L_peer LY)) peers ->
  parse_response LY (write_response LY (SAnnounce v6 fixed peers)) v6 = Some (SAnnounce v6 fixed peers).
Proof.
  intros Hs Hf Hp. unfold parse_response, write_response.
  destruct (read_i32_front 1 (enc_struct (L_announce_fixed LY) fixed ++ concat (map (enc_struct (L_peer LY)) peers)))
    as (-> & -> & ->); [apply signed_ok_small; lia|].
  cbn [Z.eqb Pos.eqb].
  rewrite (dec_enc_struct 4 _ fixed _ Hf), (dec_array_roundtrip _ _ peers Hs Hp). reflexivity.
Qed.

Theorem roundtrip_scrape_response LY tid stats v6 :
  (0 < layout_size 4 (L_scrape_stats LY))%nat ->
  signed_ok 4 tid -> Forall (wf_vals 4 (L_scrape_stats LY)) stats ->
  parse_response LY (write_response LY (SScrape tid stats)) v6 = Some (SScrape tid stats).
Proof.
  intros Hs Ht Hst. unfold parse_response, write_response.
  destruct (read_i32_front 2 (i32_be tid ++ concat (map (enc_struct (L_scrape_stats LY)) stats)))
    as (-> & -> & ->); [apply signed_ok_small; lia|].
  cbn [Z.eqb Pos.eqb].
  destruct (read_i32_front tid (concat (map (enc_struct (L_scrape_stats LY)) stats)) Ht) as (-> & -> & ->).
  rewrite (dec_array_roundtrip _ _ stats Hs Hst). reflexivity.
Qed.

Theorem roundtrip_error_response LY tid msg v6 :
  signed_ok 4 tid ->
  parse_response LY (write_response LY (SError tid msg)) v6 = Some (SError tid msg).
Proof.
  intros Ht. unfold parse_response, write_response.
  destruct (read_i32_front 3 (i32_be tid ++ msg)) as (-> & -> & ->); [apply signed_ok_small; lia|].
  cbn [Z.eqb Pos.eqb].
  destruct (read_i32_front tid msg Ht) as (-> & -> & ->). reflexivity.
Qed.

(* the same datagrams judged against the BEP 15 tables directly (independent of the translator):
   a conformance monitor on the implementation's own bytes *)
From Aquatic Require Import UdpCodecGen.
Definition udp_codec_bep15_code := udp_codec_code_for bep15_layouts.
