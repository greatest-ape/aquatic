(* C14: identifier decoding is exact; replies are canonical bencode; the query-string walk is a
   fold over key=value segments, and written requests parse back. *)
From Coq Require Import String.
From Aquatic Require Import HttpCodec Bencode AccessListFacts ListFacts.
Local Open Scope N_scope.

(* a digit is below 256, so the cast `as u8` leaves it alone *)
Lemma hexv_hexd v : v < 16 -> hexv (hexd v mod 256) = Some v.
Proof.
  intros H. rewrite N.mod_small by (unfold hexd; destruct (v <? 10); lia).
  (* by conversion: [hexv] has the body of AccessListFile.hex_val, [hexd] that of [hex_digit false] *)
  exact (hex_val_digit false v H).
Qed.

(* what it means for a character string to spell a byte string: every byte either raw (a
   character <= U+00FF other than '%') or '%' + two hex digits of either case.  After '%' the code
   casts the two characters `as u8`; [hexv (h mod 256)] is exactly that *)
Inductive spells : list N -> list N -> Prop :=
| sp_nil : spells [] []
| sp_raw c s bs : c <= 255 -> c <> ch_pct -> spells s bs -> spells (c :: s) (c :: bs)
| sp_pct h1 h2 a b s bs : hexv (h1 mod 256) = Some a -> hexv (h2 mod 256) = Some b -> spells s bs ->
                          spells (ch_pct :: h1 :: h2 :: s) (a * 16 + b :: bs).

Lemma urldecode_n_sound n : forall s bs rest,
  urldecode_n n s = Some (bs, rest) -> exists pre, s = pre ++ rest /\ spells pre bs /\ length bs = n.
Proof.
  induction n as [|n IH]; intros s bs rest; cbn [urldecode_n].
  - intros [= <- <-]. exists []. repeat split. constructor.
  - destruct s as [|c t]; [discriminate|].
    destruct (N.ltb_spec 255 c) as [|Hc]; [discriminate|].
    destruct (N.eqb_spec c ch_pct) as [->|Hne].
    + destruct t as [|h1 [|h2 t']]; try discriminate.
      destruct (hexv (h1 mod 256)) as [a|] eqn:E1; [|discriminate].
      destruct (hexv (h2 mod 256)) as [b|] eqn:E2; [|discriminate].
      destruct (urldecode_n n t') as [[bs' rest']|] eqn:E; [|discriminate].
      intros [= <- <-]. destruct (IH _ _ _ E) as (pre & -> & Hs & <-).
      exists (ch_pct :: h1 :: h2 :: pre). repeat split. exact (sp_pct _ _ _ _ _ _ E1 E2 Hs).
    + destruct (urldecode_n n t) as [[bs' rest']|] eqn:E; [|discriminate].
      intros [= <- <-]. destruct (IH _ _ _ E) as (pre & -> & Hs & <-).
      exists (c :: pre). repeat split. exact (sp_raw _ _ _ Hc Hne Hs).
Qed.

Lemma urldecode_n_complete pre bs rest : spells pre bs -> urldecode_n (length bs) (pre ++ rest) = Some (bs, rest).
Proof.
  induction 1 as [|c s bs Hc Hne _ IH|h1 h2 a b s bs E1 E2 _ IH]; cbn [length app urldecode_n].
  - reflexivity.
  - destruct (N.ltb_spec 255 c); [lia|]. destruct (N.eqb_spec c ch_pct); [contradiction|]. rewrite IH. reflexivity.
  - change (255 <? ch_pct) with false. rewrite N.eqb_refl, E1, E2, IH. reflexivity.
Qed.

Theorem urldecode20_exact s bs : urldecode20 s = Some bs <-> spells s bs /\ length bs = 20%nat.
Proof.
  apply (whole_input (urldecode_n 20) (fun pre bs => spells pre bs /\ length bs = 20%nat)).
  intros s' bs' rest. split; [apply urldecode_n_sound|].
  intros (pre & -> & Hs & <-). apply urldecode_n_complete, Hs.
Qed.

Lemma spells_urlencode bs : bytes_ok bs -> spells (urlencode bs) bs.
Proof.
  induction 1 as [|b t Hb _ IH]; [constructor|]. destruct (nibbles b Hb) as (H1 & H2 & E).
  pose proof (sp_pct _ _ _ _ _ _ (hexv_hexd _ H1) (hexv_hexd _ H2) IH) as S. rewrite E in S. exact S.
Qed.

Corollary urldecode20_urlencode bs : bytes_ok bs -> length bs = 20%nat -> urldecode20 (urlencode bs) = Some bs.
Proof. intros H Hl. apply urldecode20_exact. auto using spells_urlencode. Qed.

Lemma spells_length s bs : spells s bs -> (length bs <= length s)%nat.
Proof. induction 1; cbn; lia. Qed.

(* the encoder writing in front of what follows: one right-nested concatenation, which evaluation
   can compare with the writers' piece by piece *)
Definition benc_entries_to (f : bvalue -> list N -> list N) (tl : list N) : list (list N * bvalue) -> list N :=
  fix go l := match l with
              | [] => str "e" ++ tl
              | (k, x) :: t => itoa (N.of_nat (length k)) ++ str ":" ++ k ++ f x (go t)
              end.

Fixpoint benc_to (v : bvalue) (tl : list N) : list N :=
  match v with
  | BInt n => str "i" ++ itoa n ++ str "e" ++ tl
  | BStr s => itoa (N.of_nat (length s)) ++ str ":" ++ s ++ tl
  | BDict es => str "d" ++ benc_entries_to benc_to tl es
  end.

(* [bvalue] is nested through the list of entries, on which the generated induction principle gives
   no hypothesis: hence the explicit [fix], with an induction over the entries inside *)
Lemma benc_to_spec : forall v tl, benc_to v tl = benc v ++ tl.
Proof.
  fix IH 1. intros [n|s|es] tl; cbn [benc_to benc]; rewrite <- ?app_assoc; [reflexivity..|]. f_equal.
  induction es as [|[k x] t IHt]; [reflexivity|].
  cbn [benc_entries_to benc_entries_with]. unfold benc_key. rewrite IH, IHt, <- !app_assoc. reflexivity.
Qed.

Lemma benc_flat v : benc v = benc_to v [].
Proof. rewrite benc_to_spec. symmetry. apply app_nil_r. Qed.

Lemma scrape_entries_bencode files tl :
  Forall (fun f => length (fst f) = 20%nat) files ->
  benc_entries_to benc_to tl (map scrape_entry_value files) = concat (map write_scrape_entry files) ++ str "e" ++ tl.
Proof.
  induction 1 as [|f t Hf _ IH]; cbn [map concat]; [reflexivity|].
  unfold scrape_entry_value at 1. cbn [benc_entries_to benc_to fst snd]. rewrite IH, Hf.
  unfold write_scrape_entry. rewrite <- !app_assoc. reflexivity.
Qed.

Section Walk.
  Context {St : Type}.
  Variable kv : St -> list N -> list N -> option St.

  Definition clean (l : list N) : Prop := Forall (fun c => c <> ch_eq /\ c <> ch_amp) l.

  Fixpoint render (segs : list (list N * list N)) : list N :=
    match segs with
    | [] => []
    | [(k, v)] => k ++ ch_eq :: v
    | (k, v) :: t => k ++ ch_eq :: v ++ ch_amp :: render t
    end.

  Fixpoint fold_kv (st : St) (segs : list (list N * list N)) : option St :=
    match segs with
    | [] => Some st
    | (k, v) :: t => match kv st k v with Some st' => fold_kv st' t | None => None end
    end.

  Lemma positions_of_skip c i l t : Forall (fun x => x <> c) l -> positions_of c i (l ++ t) = positions_of c (i + length l) t.
  Proof.
    intros H. revert i. induction H as [|x l Hx _ IH]; intros i; cbn [app length positions_of].
    - rewrite Nat.add_0_r. reflexivity.
    - destruct (N.eqb_spec x c); [contradiction|]. rewrite IH. f_equal. lia.
  Qed.

  Lemma slice_mid {A} (x y z : list A) : slice (length x) (length x + length y) (x ++ y ++ z) = y.
  Proof.
    unfold slice. rewrite skipn_app_exact, Nat.add_comm, Nat.add_sub by reflexivity. apply firstn_app_exact. reflexivity.
  Qed.

  (* the value behind the sign c, its bounds written as [walk] computes them *)
  Lemma slice_value {A} (x k v z : list A) c :
    slice (length x + length k + 1) (S (length x + length k) + length v) (x ++ k ++ c :: v ++ z) = v.
  Proof.
    change (c :: v ++ z) with ([c] ++ v ++ z). rewrite 2 app_assoc, Nat.add_1_r.
    replace (S (length x + length k)) with (length ((x ++ k) ++ [c])) by (rewrite 2 app_length; apply Nat.add_1_r).
    apply slice_mid.
  Qed.

  (* one step of the walk, on a string cut as x ++ k=v ++ z with the walk standing behind x: the next '='
     is the one shown, and the segment ends where the next '&' stands (the head of amps) or, when there
     is none, with the string *)
  Lemma walk_seg s x k v z eqs amps st
        (e := (length x + length k)%nat)     (* where the '=' stands *)
        (a := (S e + length v)%nat) :         (* where the segment ends *)
    s = x ++ k ++ ch_eq :: v ++ z -> hd (length s) amps = a ->
    walk kv s (e :: eqs) amps (length x) st
    = match kv st k v with
      | None => None
      | Some st' => match z with [] => Some st' | _ => walk kv s eqs (tl amps) (S a) st' end
      end.
  Proof.
    intros Hs Ha. cbn [walk].
    replace (match amps with a' :: t => (a', t) | [] => (length s, []) end) with (hd (length s) amps, tl amps)
      by (destruct amps; reflexivity).
    rewrite Ha.
    destruct (Nat.ltb_spec e (length x)); [lia|].
    destruct (Nat.ltb_spec a (e + 1)); [lia|].
    rewrite Hs at 1 2. rewrite (slice_mid x k), (slice_value x k v z).
    (* the segment ends the string exactly when nothing follows it *)
    assert (Hl : length s = (a + length z)%nat).
    { rewrite Hs, !app_length. cbn [length]. rewrite app_length. lia. }
    rewrite Nat.add_1_r. destruct z; cbn [length] in Hl.
    - destruct (Nat.eqb_spec a (length s)); [reflexivity|lia].
    - destruct (Nat.eqb_spec a (length s)); [lia|reflexivity].
  Qed.

  Lemma render_cons k v rest :
    render ((k, v) :: rest) = k ++ ch_eq :: v ++ match rest with [] => [] | _ => ch_amp :: render rest end.
  Proof. destruct rest; [rewrite app_nil_r|]; reflexivity. Qed.

  Lemma clean_no c l : clean l -> (c = ch_eq \/ c = ch_amp) -> Forall (fun x => x <> c) l.
  Proof. intros H Hc. eapply Forall_impl; [|exact H]. cbn. intros a [A B]. destruct Hc; subst; assumption. Qed.

  Lemma walk_render segs : forall s pre p st,
    segs <> [] -> Forall (fun kvp => clean (fst kvp) /\ clean (snd kvp)) segs ->
    s = pre ++ render segs -> p = length pre ->
    walk kv s (positions_of ch_eq p (render segs)) (positions_of ch_amp p (render segs)) p st = fold_kv st segs.
  Proof.
    induction segs as [|[k v] rest IH]; intros s pre p st Hne Hwf Hs ->; [congruence|].
    inversion Hwf as [|? ? [Hk Hv] Hrest]. cbn [fst snd] in Hk, Hv.
    rewrite render_cons in *. cbn [fold_kv].
    (* k and v hold neither sign: the first '=' is the one behind k, the first '&' (if any) the one behind v *)
    rewrite !(positions_of_skip _ _ k) by (apply clean_no; auto).
    cbn [positions_of]. rewrite N.eqb_refl. change (ch_eq =? ch_amp) with false.
    rewrite !(positions_of_skip _ _ v) by (apply clean_no; auto).
    rewrite (walk_seg s pre k v _ _ _ _ Hs).
    - (* after the handler's step, the walk over the other segments, which start behind that '&' *)
      destruct (kv st k v) as [st'|]; [|reflexivity]. destruct rest as [|kv2 rest']; [reflexivity|].
      cbn [positions_of tl]. rewrite N.eqb_refl. change (ch_amp =? ch_eq) with false.
      apply (IH s (((pre ++ k) ++ ch_eq :: v) ++ [ch_amp])); [discriminate|exact Hrest| |].
      + rewrite Hs, <- !app_assoc. reflexivity.
      + rewrite !app_length. cbn [length]. lia.
    - (* walk_seg's condition on the head of amps: that '&', or the end of the string for the last segment *)
      destruct rest; cbn [positions_of hd]; [|rewrite N.eqb_refl; reflexivity].
      rewrite Hs, !app_length. cbn [length]. rewrite app_length. cbn [length]. lia.
  Qed.

  Theorem parse_query_render segs st :
    segs <> [] -> Forall (fun kvp => clean (fst kvp) /\ clean (snd kvp)) segs ->
    parse_query kv (render segs) st = fold_kv st segs.
  Proof. intros Hne Hwf. exact (walk_render segs _ [] 0%nat st Hne Hwf eq_refl eq_refl). Qed.

  (* a list of clean segments whose fold takes the handler's state from st to st' *)
  Definition drives (segs : list (list N * list N)) (st st' : St) : Prop :=
    Forall (fun kvp => clean (fst kvp) /\ clean (snd kvp)) segs /\ fold_kv st segs = Some st'.

  Lemma drives_nil st : drives [] st st.
  Proof. split; [constructor|reflexivity]. Qed.

  Lemma drives_cons k v t st st' st'' :
    clean k -> clean v -> kv st k v = Some st' -> drives t st' st'' -> drives ((k, v) :: t) st st''.
  Proof. intros Hk Hv E [Hc Hf]. split; [constructor; [split|]; assumption|]. cbn [fold_kv]. rewrite E. exact Hf. Qed.

  Lemma fold_kv_app s1 s2 : forall st,
    fold_kv st (s1 ++ s2) = match fold_kv st s1 with Some st' => fold_kv st' s2 | None => None end.
  Proof.
    induction s1 as [|[k v] t IH]; intros st; cbn [app fold_kv]; [reflexivity|].
    destruct (kv st k v); [apply IH|reflexivity].
  Qed.

  Lemma drives_app s1 s2 a b c : drives s1 a b -> drives s2 b c -> drives (s1 ++ s2) a c.
  Proof.
    intros [C1 F1] [C2 F2]. split; [apply Forall_app; split; assumption|]. rewrite fold_kv_app, F1. exact F2.
  Qed.

  Lemma drives_parse segs st st' : drives segs st st' -> segs <> [] -> parse_query kv (render segs) st = Some st'.
  Proof. intros [Hc Hf] Hne. rewrite parse_query_render; assumption. Qed.
End Walk.

(* on any input the walk calls the handler at most once per '=', and there are at most as many as bytes *)
Lemma positions_of_length c : forall s i, (length (positions_of c i s) <= length s)%nat.
Proof.
  induction s as [|x s IH]; intros i; cbn [positions_of length]; [lia|].
  destruct (N.eqb x c); cbn [length]; specialize (IH (S i)); lia.
Qed.

Lemma walk_measure {St : Type} (kv : St -> list N -> list N -> option St) (m : St -> nat) :
  (forall st k v st', kv st k v = Some st' -> (m st' <= m st + 1)%nat) ->
  forall s eqs amps pos st st',
    walk kv s eqs amps pos st = Some st' -> (m st' <= m st + length eqs)%nat.
Proof.
  intros Hkv s eqs. induction eqs as [|e eqs IH]; intros amps pos st st' H; cbn [walk length] in *.
  - injection H as <-. lia.
  - destruct (match amps with a :: t => (a, t) | [] => (length s, []) end) as [seg_end amps'].
    destruct (e <? pos)%nat; [discriminate|]. destruct (seg_end <? e + 1)%nat; [discriminate|].
    destruct (kv st _ _) as [st1|] eqn:E; [|discriminate]. apply Hkv in E.
    destruct (Nat.eqb seg_end (length s)); [injection H as <-|apply IH in H]; lia.
Qed.

Definition is_digit (c : N) : Prop := 48 <= c <= 57.

Lemma parse_digits_app l r : forall acc,
  parse_digits acc (l ++ r) = match parse_digits acc l with Some v => parse_digits v r | None => None end.
Proof.
  induction l as [|c t IH]; intros acc; cbn [app parse_digits]; [reflexivity|].
  destruct ((48 <=? c) && (c <=? 57)); [apply IH|reflexivity].
Qed.

Lemma parse_digit acc d : d < 10 -> parse_digits acc [48 + d] = Some (acc * 10 + d).
Proof.
  intros H. cbn [parse_digits]. rewrite (proj2 (N.leb_le 48 (48 + d))), (proj2 (N.leb_le (48 + d) 57)) by lia.
  cbn [andb]. f_equal. lia.
Qed.

Lemma parse_digits_digits l : forall acc v, parse_digits acc l = Some v -> Forall is_digit l.
Proof.
  induction l as [|c t IH]; intros acc v; cbn [parse_digits]; [constructor|].
  destruct (N.leb_spec 48 c), (N.leb_spec c 57); try discriminate.
  intros E. constructor; [split; assumption|exact (IH _ _ E)].
Qed.

Lemma parse_itoa_f f : forall n, n < 10 ^ N.of_nat f -> parse_digits 0 (itoa_f f n) = Some n.
Proof.
  induction f as [|f IH]; intros n Hn; cbn [itoa_f].
  - change (10 ^ N.of_nat 0) with 1 in Hn. cbn [parse_digits]. f_equal. lia.
  - destruct (N.ltb_spec n 10) as [Hlt|Hge]; [exact (parse_digit 0 n Hlt)|].
    rewrite Nat2N.inj_succ, N.pow_succ_r' in Hn.
    rewrite parse_digits_app, IH by (apply N.div_lt_upper_bound; lia).
    rewrite parse_digit by (apply N.mod_lt; lia). f_equal. pose proof (N.div_mod n 10). lia.
Qed.

Lemma itoa_f_nonempty f n : itoa_f (S f) n <> [].
Proof. cbn [itoa_f]. destruct (n <? 10); [discriminate|]. intros E. symmetry in E. exact (app_cons_not_nil _ _ _ E). Qed.

(* 20 digits suffice for a usize *)
Lemma parse_itoa n : n <= usize_max -> parse_digits 0 (itoa n) = Some n.
Proof.
  intros H. apply parse_itoa_f. change (10 ^ N.of_nat 20) with 100000000000000000000. unfold usize_max in H. lia.
Qed.

(* 43 is '+', which str::parse accepts in front of the digits *)
Lemma parse_uint_unsigned max c t : c <> 43 ->
  parse_uint max (c :: t) = match parse_digits 0 (c :: t) with Some v => if v <=? max then Some v else None | None => None end.
Proof.
  intros H. unfold parse_uint. destruct c as [|p]; [reflexivity|].
  (* the pattern 43 is a match six constructors deep in the positive; only 43 itself takes the '+' branch *)
  do 6 (try (destruct p as [p|p|]; try reflexivity)). congruence.
Qed.

Theorem parse_uint_itoa max n : n <= max -> max <= usize_max -> parse_uint max (itoa n) = Some n.
Proof.
  intros Hn Hm. assert (Hp : parse_digits 0 (itoa n) = Some n) by (apply parse_itoa; lia).
  pose proof (parse_digits_digits _ _ _ Hp) as Hd.
  destruct (itoa n) as [|c t] eqn:E.
  - destruct (itoa_f_nonempty 19 n E).   (* itoa is itoa_f 20 *)
  - inversion Hd as [|? ? Hc _]. unfold is_digit in Hc.
    rewrite parse_uint_unsigned, Hp by lia. destruct (N.leb_spec n max); [reflexivity|lia].
Qed.

Lemma itoa_clean n : n <= usize_max -> clean (itoa n).
Proof.
  intros Hn. pose proof (parse_digits_digits _ _ _ (parse_itoa n Hn)) as Hd.
  unfold clean. eapply Forall_impl; [|exact Hd]. unfold is_digit, ch_eq, ch_amp. intros a H. lia.
Qed.

Lemma urlencode_clean bs : bytes_ok bs -> clean (urlencode bs).
Proof.
  induction 1 as [|b t Hb _ IH]; cbn [urlencode flat_map app]; [constructor|].
  assert (Hd : forall v, v < 16 -> hexd v <> ch_eq /\ hexd v <> ch_amp).
  { intros v Hv. unfold hexd, ch_eq, ch_amp. destruct (N.ltb_spec v 10); lia. }
  destruct (nibbles b Hb) as (H1 & H2 & _).
  constructor; [unfold ch_pct, ch_eq, ch_amp; lia|]. constructor; [apply Hd, H1|]. constructor; [apply Hd, H2|]. exact IH.
Qed.

Definition cleanb (l : list N) : bool := forallb (fun c => negb (c =? ch_eq) && negb (c =? ch_amp)) l.

Lemma cleanb_clean l : cleanb l = true -> clean l.
Proof.
  unfold cleanb, clean. rewrite forallb_forall, Forall_forall. intros H c Hc. specialize (H c Hc).
  destruct (N.eqb_spec c ch_eq), (N.eqb_spec c ch_amp); try discriminate. split; assumption.
Qed.

(* a number or an identifier written under key k drives a handler's state as the handler does on what the
   value parses to *)
Section Written.
  Context {St : Type} {kv : St -> list N -> list N -> option St}.

  Lemma drives_uint {k max n t a a' a''} :
    (forall v, parse_uint max v = Some n -> kv a k v = Some a') ->
    cleanb k = true -> n <= max -> max <= usize_max -> drives kv t a' a'' -> drives kv ((k, itoa n) :: t) a a''.
  Proof.
    intros Hkv Hk Hn Hm. apply drives_cons; [apply cleanb_clean, Hk|apply itoa_clean; lia|].
    apply Hkv, parse_uint_itoa; assumption.
  Qed.

  Lemma drives_id {k bs t a a' a''} :
    (forall v, urldecode20 v = Some bs -> kv a k v = Some a') ->
    cleanb k = true -> bytes_ok bs -> length bs = 20%nat -> drives kv t a' a'' -> drives kv ((k, urlencode bs) :: t) a a''.
  Proof.
    intros Hkv Hk Hb Hl. apply drives_cons; [apply cleanb_clean, Hk|apply urlencode_clean, Hb|].
    apply Hkv, urldecode20_urlencode; assumption.
  Qed.

  Lemma drives_lit {k v a a'} : kv a k v = Some a' -> cleanb k = true -> cleanb v = true -> drives kv [(k, v)] a a'.
  Proof. intros E Hk Hv. apply drives_cons with (st' := a'); [apply cleanb_clean..| |apply drives_nil]; assumption. Qed.
End Written.

Section RoundTrip.
  Variable url_decode : list N -> option (list N).
  Variable url_encode : list N -> list N.

  Lemma parse_path_scrape q :
    parse_path url_decode (str "/scrape" ++ str "?" ++ q) = option_map HReqScrape (parse_scrape_query q).
  Proof. reflexivity. Qed.

  Lemma parse_path_announce q :
    parse_path url_decode (str "/announce" ++ str "?" ++ q) = option_map HReqAnnounce (parse_announce_query url_decode q).
  Proof. reflexivity. Qed.

  Lemma join_hashes_render hs :
    join_hashes hs = render (map (fun h => (str "info_hash", urlencode h)) hs).
  Proof.
    induction hs as [|h t IH]; [reflexivity|]. destruct t as [|h2 t']; [reflexivity|].
    cbn [map] in *. rewrite render_cons, <- IH. reflexivity.
  Qed.

  Lemma drives_scrape hs : forall acc,
    Forall (fun h => bytes_ok h /\ length h = 20%nat) hs ->
    drives scrape_kv (map (fun h => (str "info_hash", urlencode h)) hs) acc (acc ++ hs).
  Proof.
    induction hs as [|h t IH]; intros acc H; cbn [map]; [rewrite app_nil_r; apply drives_nil|].
    inversion H as [|? ? [Hb Hl] Ht]; subst.
    apply (drives_id (a' := acc ++ [h])); [|reflexivity|exact Hb|exact Hl|].
    - intros v E. unfold scrape_kv. rewrite E. reflexivity.
    - replace (acc ++ h :: t) with ((acc ++ [h]) ++ t) by (rewrite <- app_assoc; reflexivity). apply IH, Ht.
  Qed.

  Definition announce_segs (r : areq) : list (list N * list N) :=
    [(str "info_hash", urlencode (a_info_hash r)); (str "peer_id", urlencode (a_peer_id r));
     (str "port", itoa (a_port r)); (str "uploaded", itoa (a_uploaded r));
     (str "downloaded", itoa (a_downloaded r)); (str "left", itoa (a_left r))]
    ++ match a_event r with
       | EvStarted => [(str "event", str "started")] | EvStopped => [(str "event", str "stopped")]
       | EvCompleted => [(str "event", str "completed")] | EvEmpty => []
       end
    ++ match a_numwant r with Some n => [(str "numwant", itoa n)] | None => [] end
    ++ match a_key r with Some k => [(str "key", url_encode k)] | None => [] end
    ++ [(str "compact", str "1")].

  Lemma announce_path_render r :
    write_announce_path url_encode [] r = str "/announce" ++ str "?" ++ render (announce_segs r).
  Proof.
    unfold write_announce_path, announce_segs.
    destruct (a_event r), (a_numwant r), (a_key r); reflexivity.
  Qed.

  (* what an announce request must satisfy to be written faithfully: 20-byte identifiers, a key
     whose url-encoding is at most 100 bytes (the parser's cap) and decodes back *)
  Definition areq_wf (r : areq) : Prop :=
    bytes_ok (a_info_hash r) /\ length (a_info_hash r) = 20%nat
    /\ bytes_ok (a_peer_id r) /\ length (a_peer_id r) = 20%nat
    /\ a_port r <= 65535 /\ a_uploaded r <= usize_max /\ a_downloaded r <= usize_max /\ a_left r <= usize_max
    /\ match a_numwant r with Some n => n <= usize_max | None => True end
    /\ match a_key r with
       | Some k => url_decode (url_encode k) = Some k /\ clean (url_encode k) /\ (utf8_length (url_encode k) <= 100)%nat
       | None => True
       end.

  (* what announce_kv does on each known key, given what the value parses to.  The accumulator is in
     constructor form: over a variable [a] every step would nest the projections of [a] once more *)
  Lemma kv_info_hash {ih pid po l u d e n k x} v : urldecode20 v = Some x ->
    announce_kv url_decode (mkAcc ih pid po l u d e n k) (str "info_hash") v = Some (mkAcc (Some x) pid po l u d e n k).
  Proof. intros E. unfold announce_kv. rewrite E. reflexivity. Qed.
  Lemma kv_peer_id {ih pid po l u d e n k x} v : urldecode20 v = Some x ->
    announce_kv url_decode (mkAcc ih pid po l u d e n k) (str "peer_id") v = Some (mkAcc ih (Some x) po l u d e n k).
  Proof. intros E. unfold announce_kv. rewrite E. reflexivity. Qed.
  Lemma kv_port {ih pid po l u d e n k x} v : parse_uint 65535 v = Some x ->
    announce_kv url_decode (mkAcc ih pid po l u d e n k) (str "port") v = Some (mkAcc ih pid (Some x) l u d e n k).
  Proof. intros E. unfold announce_kv. rewrite E. reflexivity. Qed.
  Lemma kv_left {ih pid po l u d e n k x} v : parse_uint usize_max v = Some x ->
    announce_kv url_decode (mkAcc ih pid po l u d e n k) (str "left") v = Some (mkAcc ih pid po (Some x) u d e n k).
  Proof. intros E. unfold announce_kv. rewrite E. reflexivity. Qed.
  Lemma kv_uploaded {ih pid po l u d e n k x} v : parse_uint usize_max v = Some x ->
    announce_kv url_decode (mkAcc ih pid po l u d e n k) (str "uploaded") v = Some (mkAcc ih pid po l (Some x) d e n k).
  Proof. intros E. unfold announce_kv. rewrite E. reflexivity. Qed.
  Lemma kv_downloaded {ih pid po l u d e n k x} v : parse_uint usize_max v = Some x ->
    announce_kv url_decode (mkAcc ih pid po l u d e n k) (str "downloaded") v = Some (mkAcc ih pid po l u (Some x) e n k).
  Proof. intros E. unfold announce_kv. rewrite E. reflexivity. Qed.
  Lemma kv_numwant {ih pid po l u d e n k x} v : parse_uint usize_max v = Some x ->
    announce_kv url_decode (mkAcc ih pid po l u d e n k) (str "numwant") v = Some (mkAcc ih pid po l u d e (Some x) k).
  Proof. intros E. unfold announce_kv. rewrite E. reflexivity. Qed.
  Lemma kv_key {ih pid po l u d e n k x v} : (utf8_length v <= 100)%nat -> url_decode v = Some x ->
    announce_kv url_decode (mkAcc ih pid po l u d e n k) (str "key") v = Some (mkAcc ih pid po l u d e n (Some x)).
  Proof.
    intros Hl E. unfold announce_kv. rewrite E. destruct (Nat.ltb_spec 100 (utf8_length v)); [lia|reflexivity].
  Qed.

  Lemma drives_announce r : areq_wf r ->
    drives (announce_kv url_decode) (announce_segs r) acc0
      (mkAcc (Some (a_info_hash r)) (Some (a_peer_id r)) (Some (a_port r)) (Some (a_left r)) (Some (a_uploaded r))
             (Some (a_downloaded r)) (a_event r) (a_numwant r) (a_key r)).
  Proof.
    destruct r as [ih pid port up down lft ev nw key]. unfold areq_wf, announce_segs, acc0.
    cbn [a_event a_numwant a_key a_info_hash a_peer_id a_port a_uploaded a_downloaded a_left app].
    intros (Hih & Hihl & Hpid & Hpidl & Hport & Hup & Hdown & Hleft & Hnw & Hkey).
    (* the six mandatory segments in the order written: what the handler does on the key, then that the
       key is clean and the value in the range its parser accepts *)
    apply (drives_id kv_info_hash); [reflexivity|exact Hih|exact Hihl|].
    apply (drives_id kv_peer_id); [reflexivity|exact Hpid|exact Hpidl|].
    apply (drives_uint kv_port); [reflexivity|exact Hport|now apply N.leb_le|].   (* 65535 <= usize_max *)
    apply (drives_uint kv_uploaded); [reflexivity|exact Hup|apply N.le_refl|].
    apply (drives_uint kv_downloaded); [reflexivity|exact Hdown|apply N.le_refl|].
    apply (drives_uint kv_left); [reflexivity|exact Hleft|apply N.le_refl|].
    (* the optional segments: each sets its field to what the request holds, present or not *)
    apply drives_app with (b := mkAcc (Some ih) (Some pid) (Some port) (Some lft) (Some up) (Some down) ev None None).
    { destruct ev; [apply drives_lit; reflexivity..|apply drives_nil]. }
    apply drives_app with (b := mkAcc (Some ih) (Some pid) (Some port) (Some lft) (Some up) (Some down) ev nw None).
    { destruct nw; [|apply drives_nil]. apply (drives_uint kv_numwant); [reflexivity|exact Hnw|apply N.le_refl|apply drives_nil]. }
    apply drives_app with (b := mkAcc (Some ih) (Some pid) (Some port) (Some lft) (Some up) (Some down) ev nw key).
    { destruct key as [k|]; [|apply drives_nil]. destruct Hkey as (Hd & Hc & Hl).
      apply drives_cons with (3 := kv_key Hl Hd); [apply cleanb_clean; reflexivity|exact Hc|apply drives_nil]. }
    apply drives_lit; reflexivity.
  Qed.

End RoundTrip.
