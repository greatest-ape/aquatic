(* C19: the watchdog loop returns an error at the first scan at or after the moment any worker
   thread ended, whatever the kind of worker, the way it ended, and the moment. *)
From Aquatic Require Import Watchdog.
Local Open Scope N_scope.

Lemma scan_none_not_finished now ws w t e :
  scan now ws = None -> In w ws -> wk_end w = Some (t, e) -> now < t.
Proof.
  induction ws as [|x ws IH]; intros Hs Hin He; [destruct Hin|].
  cbn [scan] in Hs. destruct (finished_at now x) eqn:Ef; [discriminate|].
  destruct Hin as [->|Hin]; [|apply IH; assumption].
  unfold finished_at in Ef. rewrite He in Ef. destruct (N.leb_spec t now); [discriminate|assumption].
Qed.

Lemma scan_finds_finished now ws w t e :
  In w ws -> wk_end w = Some (t, e) -> t <= now -> exists x, scan now ws = Some x.
Proof.
  intros Hin He Ht. destruct (scan now ws) as [x|] eqn:Hs; [exists x; reflexivity|].
  pose proof (scan_none_not_finished _ _ _ _ _ Hs Hin He). lia.
Qed.

Lemma scan_sound now ws k e : scan now ws = Some (k, e) ->
  exists w t, In w ws /\ wk_kind w = k /\ wk_end w = Some (t, e) /\ t <= now.
Proof.
  induction ws as [|x ws IH]; intros H; [discriminate|].
  cbn [scan] in H. destruct (finished_at now x) eqn:Ef.
  - injection H as <- <-. unfold finished_at in Ef. destruct (wk_end x) as [[t e']|] eqn:Ee; [|discriminate].
    destruct (N.leb_spec t now); [|discriminate]. injection Ef as <-.
    exists x, t. split; [left; reflexivity|]. split; [reflexivity|]. split; assumption.
  - destruct (IH H) as (w & t & Hin & Hrest). exists w, t. split; [right; exact Hin|exact Hrest].
Qed.

(* the loop's invariant while worker w, ended at t, goes unreported: the next scan, number n, comes
   less than a period after t.  When the last of the [fuel] scans to come, number n + fuel - 1, is
   at or after t (written without the subtraction), the loop returns at that one at the latest. *)
Lemma watchdog_catches_from period ws w t e : In w ws -> wk_end w = Some (t, e) ->
  forall fuel n, n * period < t + period -> t + period <= (n + N.of_nat fuel) * period ->
  exists T r, watchdog period ws n fuel = Some (T, r) /\ T < t + period.
Proof.
  intros Hin He. induction fuel as [|f IH]; intros n Hn Hf.
  - rewrite N.add_0_r in Hf. lia.
  - cbn [watchdog]. destruct (scan (n * period) ws) as [x|] eqn:Es.
    + exists (n * period), (to_result x). split; [reflexivity|exact Hn].
    + pose proof (scan_none_not_finished _ _ _ _ _ Es Hin He) as Hlt.
      rewrite Nat2N.inj_succ in Hf. apply IH; lia.
Qed.
