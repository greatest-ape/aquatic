(* Generic struct codec: encode-then-decode is the identity for every layout, and a decoded field is
   what stands at its offset. *)
From Aquatic Require Import ListFacts UdpCodec.
Local Open Scope N_scope.

Lemma enc_field_length ipw t v : wf_field ipw t v -> length (enc_field t v) = fwidth ipw t.
Proof.
  destruct t, v; cbn; intros H; try contradiction; tauto.
Qed.

Lemma dec_enc_field ipw t v : wf_field ipw t v -> dec_field ipw t (enc_field t v) = Some v.
Proof.
  destruct t, v; cbn [wf_field enc_field dec_field]; intros H; try contradiction.
  - rewrite be_signed_roundtrip by apply H. reflexivity.
  - rewrite be_signed_roundtrip by exact H. reflexivity.
  - rewrite be_dec_enc by (change (pow256 2) with 65536; lia). f_equal. f_equal. lia.
  - rewrite be_dec_enc by (change (pow256 4) with 4294967296; lia). f_equal. f_equal. lia.
  - reflexivity.
  - (* FEnum: the discriminant must be one of the enum's *)
    destruct H as [H E]. rewrite be_signed_roundtrip by exact H. rewrite E. reflexivity.
  - reflexivity.
Qed.

Theorem dec_enc_struct ipw l : forall vs rest,
  wf_vals ipw l vs -> dec_prefix ipw l (enc_struct l vs ++ rest) = Some (vs, rest).
Proof.
  induction l as [|[name t] l IH]; intros vs rest H; destruct vs as [|v vs]; cbn in H; try contradiction.
  - reflexivity.
  - destruct H as [Hv Hvs]. cbn [dec_prefix enc_struct].
    pose proof (enc_field_length ipw t v Hv) as Hl.
    rewrite <- app_assoc.
    destruct (Nat.ltb_spec (length (enc_field t v ++ enc_struct l vs ++ rest)) (fwidth ipw t)) as [Hlt|_].
    + rewrite app_length in Hlt. lia.
    + rewrite (firstn_app_exact _ _ _ Hl), (skipn_app_exact _ _ _ Hl).
      rewrite (dec_enc_field ipw t v Hv), (IH vs rest Hvs). reflexivity.
Qed.

Corollary dec_enc_struct_nil ipw l vs : wf_vals ipw l vs -> dec_prefix ipw l (enc_struct l vs) = Some (vs, []).
Proof. intros H. rewrite <- (app_nil_r (enc_struct l vs)). apply dec_enc_struct, H. Qed.

Lemma enc_struct_length ipw l : forall vs, wf_vals ipw l vs -> length (enc_struct l vs) = layout_size ipw l.
Proof.
  induction l as [|[name t] l IH]; intros vs H; destruct vs as [|v vs]; cbn in H; try contradiction; [reflexivity|].
  destruct H as [Hv Hvs]. cbn [enc_struct layout_size fold_right snd]. rewrite app_length.
  rewrite (enc_field_length ipw t v Hv). f_equal. apply IH, Hvs.
Qed.

Lemma dec_prefix_short ipw l bytes :
  (length bytes < layout_size ipw l)%nat -> dec_prefix ipw l bytes = None.
Proof.
  revert bytes. induction l as [|[name t] l IH]; intros bytes H; cbn in H; [lia|].
  cbn [dec_prefix]. destruct (Nat.ltb_spec (length bytes) (fwidth ipw t)) as [|Hge]; [reflexivity|].
  rewrite IH; [destruct (dec_field ipw t _); reflexivity|].
  rewrite skipn_length. fold (layout_size ipw l) in H. lia.
Qed.

(* where a named field sits in the bytes of a struct, and its type *)
Fixpoint field_offset (ipw : nat) (l : layout) (name : string) : option (nat * fty) :=
  match l with
  | [] => None
  | (n, t) :: l' =>
      if String.eqb n name then Some (0%nat, t)
      else match field_offset ipw l' name with
           | Some (off, t') => Some ((fwidth ipw t + off)%nat, t')
           | None => None
           end
  end.

Lemma field_offset_bound ipw l name : forall off t,
  field_offset ipw l name = Some (off, t) -> (off + fwidth ipw t <= layout_size ipw l)%nat.
Proof.
  induction l as [|[n ty] l IH]; intros off t H; cbn [field_offset] in H; [discriminate|].
  cbn [layout_size fold_right snd]. fold (layout_size ipw l).
  destruct (String.eqb n name); [injection H as <- <-; lia|].
  destruct (field_offset ipw l name) as [[off' t']|]; [|discriminate]. injection H as <- <-.
  specialize (IH off' t' eq_refl). lia.
Qed.

Lemma dec_prefix_field {ipw l name bytes vs rest off t} :
  dec_prefix ipw l bytes = Some (vs, rest) -> field_offset ipw l name = Some (off, t) ->
  exists v, field_at l vs name = Some v /\ dec_field ipw t (firstn (fwidth ipw t) (skipn off bytes)) = Some v.
Proof.
  unfold field_at. revert bytes vs rest off t.
  induction l as [|[n ty] l IH]; intros bytes vs rest off t Hd Hf; cbn [field_offset] in Hf; [discriminate|].
  cbn [dec_prefix] in Hd.
  destruct (length bytes <? fwidth ipw ty)%nat; [discriminate|].
  destruct (dec_field ipw ty (firstn (fwidth ipw ty) bytes)) as [v|] eqn:Ev; [|discriminate].
  destruct (dec_prefix ipw l (skipn (fwidth ipw ty) bytes)) as [[vs' rest']|] eqn:Er; [|discriminate].
  injection Hd as <- <-.
  destruct (String.eqb n name).
  - injection Hf as <- <-. exists v. split; [reflexivity|exact Ev].
  - destruct (field_offset ipw l name) as [[off' t']|]; [|discriminate]. injection Hf as <- <-.
    rewrite <- skipn_skipn. exact (IH _ _ _ _ _ Er eq_refl).
Qed.

Corollary dec_prefix_enum {ipw l name bytes vs rest off ds} :
  dec_prefix ipw l bytes = Some (vs, rest) -> field_offset ipw l name = Some (off, FEnum ds) ->
  enum_valid ds (rd_i32 (firstn 4 (skipn off bytes))) = true.
Proof.
  intros Hd Hf. destruct (dec_prefix_field Hd Hf) as (v & _ & Hv).
  cbn [dec_field fwidth] in Hv. unfold rd_i32. destruct (enum_valid ds _); [reflexivity|discriminate].
Qed.
