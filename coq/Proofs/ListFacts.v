(* List lemmas that the standard library of Coq 8.16 lacks. *)
From Coq Require Export List Arith Lia Permutation.
Export ListNotations.

Lemma Permutation_filter {A} (f : A -> bool) l l' :
  Permutation l l' -> Permutation (filter f l) (filter f l').
Proof.
  induction 1 as [|x l l' _ IH|x y l|l l' l'' _ IH1 _ IH2]; cbn.
  - constructor.
  - destruct (f x); [constructor|]; exact IH.
  - destruct (f x), (f y); try apply Permutation_refl. apply perm_swap.
  - eapply Permutation_trans; eassumption.
Qed.

Lemma filter_length_le {A} (f : A -> bool) l : length (filter f l) <= length l.
Proof. induction l as [|x t IH]; cbn; [lia|]. destruct (f x); cbn; lia. Qed.

Lemma NoDup_map_filter {A B} (g : A -> B) (f : A -> bool) l :
  NoDup (map g l) -> NoDup (map g (filter f l)).
Proof.
  induction l as [|x t IH]; cbn; [constructor|]. intros [Hx Ht]%NoDup_cons_iff.
  destruct (f x); cbn; [constructor|]; auto.
  intros Hin. apply Hx. revert Hin. apply incl_map, incl_filter.
Qed.

Lemma NoDup_snoc {A} (l : list A) x : NoDup l -> ~ In x l -> NoDup (l ++ [x]).
Proof.
  intros Hl Hx. eapply Permutation_NoDup; [apply Permutation_cons_append|]. constructor; assumption.
Qed.

Lemma last_removelast_perm {A} (d : A) l : l <> [] -> Permutation (last l d :: removelast l) l.
Proof.
  (* [at 3]: the list on the right, which is its last entry appended to the rest *)
  intros H. rewrite (app_removelast_last d H) at 3. apply Permutation_cons_append.
Qed.

Lemma NoDup_app {A} (a b : list A) :
  NoDup a -> NoDup b -> (forall x, In x a -> In x b -> False) -> NoDup (a ++ b).
Proof.
  induction a as [|x a IH]; intros Ha Hb Hd; cbn; [exact Hb|].
  inversion Ha as [|? ? Hx Ha']; subst. constructor.
  - rewrite in_app_iff. intros [H|H]; [contradiction|]. apply (Hd x); [left; reflexivity|exact H].
  - apply IH; [exact Ha'|exact Hb|]. intros y H1 H2. apply (Hd y); [right; exact H1|exact H2].
Qed.

Lemma NoDup_drop_middle {A} (a b c : list A) : NoDup (a ++ b ++ c) -> NoDup (a ++ c).
Proof. induction b as [|x b IH]; cbn; [tauto|]. intros H. apply IH. eapply NoDup_remove_1, H. Qed.

Lemma NoDup_firstn {A} n (l : list A) : NoDup l -> NoDup (firstn n l).
Proof.
  intros H. rewrite <- (firstn_skipn n l), <- (app_nil_r (skipn n l)) in H.
  apply NoDup_drop_middle in H. now rewrite app_nil_r in H.
Qed.

Lemma incl_firstn {A} n (l : list A) : incl (firstn n l) l.
Proof. intros x H. rewrite <- (firstn_skipn n l). apply in_or_app. now left. Qed.

Lemma firstn_min_length {A} n (l : list A) : firstn (Nat.min (length l) n) l = firstn n l.
Proof.
  destruct (Nat.le_ge_cases (length l) n) as [H|H]; [|now rewrite Nat.min_r].
  rewrite Nat.min_l by exact H. now rewrite !firstn_all2.
Qed.

Lemma skipn_skipn {A} (x y : nat) (l : list A) : skipn x (skipn y l) = skipn (y + x) l.
Proof.
  revert l; induction y as [|y IH]; intros l; cbn; [reflexivity|].
  destruct l as [|a l]; [now destruct x|]. apply IH.
Qed.

(* Two windows [a, a+n) and [b, b+m) of a list, the first ending before the second begins. *)
Section Windows.
  Context {A : Type} (L : list A).
  Notation window a n := (firstn n (skipn a L)).

  Lemma window_incl a n : incl (window a n) L.
  Proof. intros x H%incl_firstn. rewrite <- (firstn_skipn a L). apply in_or_app. now right. Qed.

  Lemma window_length a n : a + n <= length L -> length (window a n) = n.
  Proof. intros H. apply firstn_length_le. rewrite skipn_length. lia. Qed.

  Lemma windows_NoDup a n b m : NoDup L -> a + n <= b -> NoDup (window a n ++ window b m).
  Proof.
    intros HL Hle.
    (* L = prefix ++ window a n ++ gap ++ window b m ++ rest *)
    replace b with (a + (n + (b - (a + n)))) by lia. rewrite <- !skipn_skipn.
    rewrite <- (firstn_skipn a L) in HL at 1. apply (NoDup_drop_middle []) in HL. cbn in HL.
    rewrite <- (firstn_skipn n (skipn a L)) in HL at 1.
    set (L2 := skipn n (skipn a L)) in *.
    rewrite <- (firstn_skipn (b - (a + n)) L2) in HL at 1. apply NoDup_drop_middle in HL.
    rewrite <- (firstn_skipn m (skipn _ L2)), <- (app_nil_r (skipn m _)), app_assoc in HL.
    apply NoDup_drop_middle in HL. now rewrite app_nil_r in HL.
  Qed.
End Windows.

Lemma Forall_repeat {A} (P : A -> Prop) x n : P x -> Forall P (repeat x n).
Proof. intros H. apply Forall_forall. intros y ->%repeat_spec. exact H. Qed.

Lemma concat_length_n {A} n (cs : list (list A)) :
  Forall (fun c => length c = n) cs -> length (concat cs) = (n * length cs)%nat.
Proof. induction 1 as [|c t Hc _ IH]; cbn [concat length]; [lia|]. rewrite app_length, Hc, IH. lia. Qed.

Lemma concat_map_length {A B} (f : A -> list B) (l : list A) k :
  Forall (fun x => length (f x) = k) l -> length (concat (map f l)) = (k * length l)%nat.
Proof. intros H. rewrite (concat_length_n k), map_length; [reflexivity|]. apply Forall_map, H. Qed.

Lemma concat_map_length_le {A B} (f : A -> list B) (l : list A) k :
  Forall (fun x => length (f x) <= k)%nat l -> (length (concat (map f l)) <= k * length l)%nat.
Proof. induction 1 as [|x t Hx _ IH]; cbn; [lia|]. rewrite app_length. lia. Qed.

(* a decoder that wants the whole input consumed by a prefix decoder accepts exactly what the
   prefix decoder's relation holds of (the shape of WsCodec.dec20 and HttpCodec.urldecode20) *)
Lemma whole_input {A B} (take : list A -> option (list B * list A)) (R : list A -> list B -> Prop) :
  (forall s bs rest, take s = Some (bs, rest) <-> exists pre, s = pre ++ rest /\ R pre bs) ->
  forall s bs, match take s with Some (bs', []) => Some bs' | _ => None end = Some bs <-> R s bs.
Proof.
  intros Hspec s bs. split.
  - destruct (take s) as [[b r]|] eqn:E; [|discriminate]. destruct r; [|discriminate]. intros [= ->].
    apply Hspec in E. destruct E as (pre & -> & HR). rewrite app_nil_r. exact HR.
  - intros HR. rewrite (proj2 (Hspec s bs []) (ex_intro _ s (conj (eq_sym (app_nil_r s)) HR))). reflexivity.
Qed.

Lemma firstn_app_exact {A} (a b : list A) n : length a = n -> firstn n (a ++ b) = a.
Proof. intros <-. rewrite firstn_app, Nat.sub_diag, firstn_all. cbn. apply app_nil_r. Qed.

Lemma skipn_app_exact {A} (a b : list A) n : length a = n -> skipn n (a ++ b) = b.
Proof. intros <-. rewrite skipn_app, Nat.sub_diag, skipn_all. reflexivity. Qed.
