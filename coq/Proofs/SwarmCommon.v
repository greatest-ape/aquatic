(* Facts shared by the udp and http swarm refinements, parametric in the inline capacity
   [cap] and in [shrink] (does a cleaning pass convert a small heap map back?).  A family of
   torrents is related to its reference [rf] by [fam_rel]; the three lemmas [fam_counts],
   [fam_announce_refines] and [fam_clean_refines] say what scrape, announce and a cleaning pass
   do to that relation, and both trackers' step theorems are instances of them. *)
From Aquatic Require Import WsSwarm RefSwarm PeerMapFacts PeerMapRefine.

Definition tm_wf (tm : tmap) : Prop := NoDup (map fst tm).

(* a torrent map is an association list in the sense of AssocFacts *)
Lemma tm_find_aget h tm : tm_find h tm = aget N.eqb h tm.
Proof. unfold tm_find. induction tm as [|[h' pm] t IH]; cbn; [reflexivity|]. now destruct (N.eqb h' h). Qed.

Lemma tm_set_aput h pm tm : tm_set h pm tm = aput N.eqb h pm tm.
Proof. reflexivity. Qed.

Lemma tm_find_set h h' pm tm :
  tm_find h' (tm_set h pm tm) = if N.eqb h' h then Some pm else tm_find h' tm.
Proof. rewrite !tm_find_aget, tm_set_aput. apply aget_aput. Qed.

Lemma tm_get_set h h' pm tm : tm_get h' (tm_set h pm tm) = if N.eqb h' h then pm else tm_get h' tm.
Proof. unfold tm_get. rewrite tm_find_set. destruct (N.eqb h' h); reflexivity. Qed.

Lemma tm_set_wf h pm tm : tm_wf tm -> tm_wf (tm_set h pm tm).
Proof. rewrite tm_set_aput. apply aput_nodup. Qed.

Lemma tm_find_in h pm tm : tm_find h tm = Some pm -> In (h, pm) tm.
Proof. rewrite tm_find_aget. apply aget_some_in. Qed.

Lemma tm_find_none h tm : tm_find h tm = None -> ~ In h (map fst tm).
Proof. rewrite tm_find_aget. apply aget_none_notin. Qed.

Lemma tm_in_find h pm tm : tm_wf tm -> In (h, pm) tm -> tm_find h tm = Some pm.
Proof. rewrite tm_find_aget. apply in_aget. Qed.

Section Common.
  Context {cap : nat} {shrink : bool}.

  Lemma pm_counts_refines pm r :
    pmap_inv cap shrink pm -> pm_refines pm r -> pm_counts pm = Ok (ref_counts r).
  Proof.
    intros Hinv Href. rewrite <- (ref_counts_perm _ _ Href).
    exact (pm_counts_exact 0 0 pm Hinv).   (* [pmap_inv] is [pmap_short 0 0] *)
  Qed.

  Lemma small_nil_inv : pmap_inv cap shrink (Small []).
  Proof. split; cbn; [constructor|lia]. Qed.

  Definition pm_clean_pure (now : N) (pm : pmap) : pmap :=
    match pm with
    | Small l => Small (filter (peer_valid now) l)
    | Large l _ =>
        let l' := filter (peer_valid now) l in
        if shrink && (length l' <=? cap) then Small l' else Large l' (count_seeders l')
    end.

  Lemma pm_clean_pure_entries now pm :
    pm_entries (pm_clean_pure now pm) = filter (peer_valid now) (pm_entries pm).
  Proof. destruct pm as [l|l ns]; cbn; [reflexivity|]. destruct (shrink && _); reflexivity. Qed.

  Lemma pm_clean_pure_inv now pm : pmap_inv cap shrink pm -> pmap_inv cap shrink (pm_clean_pure now pm).
  Proof.
    intros [Hnd Hrep]. split; [rewrite pm_clean_pure_entries; apply NoDup_map_filter, Hnd|].
    destruct pm as [l|l ns]; cbn [pm_clean_pure].
    - pose proof (filter_length_le (peer_valid now) l). lia.
    - destruct shrink; cbn [andb]; [|split; [reflexivity|discriminate]].
      destruct (Nat.leb_spec (length (filter (peer_valid now) l)) cap); [assumption|].
      split; [reflexivity|intros _; assumption].
  Qed.

  Lemma pm_clean_pure_refines now pm r :
    pm_refines pm r -> pm_refines (pm_clean_pure now pm) (ref_clean now r).
  Proof. unfold pm_refines. rewrite pm_clean_pure_entries. apply Permutation_filter. Qed.

  (* the cleaning pass never panics: the stored seeder count of a heap map is exact, so the
     per-entry decrements of [dec_expired_seeders] cannot underflow *)
  Lemma pm_clean_eq pc pm now :
    pmap_inv cap shrink pm ->
    pm_clean cap shrink pc pm now
    = Ok (pm_clean_pure now pm, ref_counts (filter (peer_valid now) (pm_entries pm)),
          removed_msgs pc now (pm_entries pm)).
  Proof.
    intros [_ Hrep]. unfold ref_counts. destruct pm as [l|l ns]; cbn [pm_entries pm_clean pm_clean_pure].
    - rewrite checked_sub_ok by apply count_seeders_le. reflexivity.
    - destruct Hrep as [-> _]. change (count_seeders l) with (0 + count_seeders l) at 1.
      rewrite dec_expired_spec. cbn [obind Nat.add].
      rewrite checked_sub_ok by apply count_seeders_le. reflexivity.
  Qed.

  Lemma pm_clean_refines pc pm r now :
    pmap_inv cap shrink pm -> pm_refines pm r ->
    pm_clean cap shrink pc pm now
    = Ok (pm_clean_pure now pm, ref_counts (ref_clean now r), removed_msgs pc now (pm_entries pm)).
  Proof.
    intros Hinv Href. rewrite (pm_clean_eq pc pm now Hinv). do 3 f_equal.
    apply ref_counts_perm, Permutation_filter, Href.
  Qed.

  Definition fam_rel (tm : tmap) (rf : N -> entries) : Prop :=
    tm_wf tm /\ forall h, pmap_inv cap shrink (tm_get h tm) /\ pm_refines (tm_get h tm) (rf h).

  (* [fam_rel] in terms of [tm_find]: a stored torrent refines its reference, an absent one has
     an empty reference.  The form for a proof that computes the lookup (cleaning, which filters
     and maps the list); the others read [fam_rel] as it is defined. *)
  Lemma fam_rel_iff tm rf :
    fam_rel tm rf <->
    tm_wf tm /\ forall h, match tm_find h tm with
                         | Some pm => pmap_inv cap shrink pm /\ pm_refines pm (rf h)
                         | None => rf h = []
                         end.
  Proof.
    unfold fam_rel, tm_get. apply and_iff_compat_l.
    split; intros H h; specialize (H h); destruct (tm_find h tm); try exact H.
    - apply Permutation_nil, H.
    - rewrite H. split; [apply small_nil_inv|constructor].
  Qed.

  Lemma fam_rel_empty : fam_rel [] (fun _ => []).
  Proof. apply fam_rel_iff. split; [constructor|reflexivity]. Qed.

  Lemma fam_rel_forall tm rf : fam_rel tm rf -> Forall (fun e => pmap_inv cap shrink (snd e)) tm.
  Proof.
    intros [Hwf H]. apply Forall_forall. intros [h pm] Hin.
    specialize (H h). unfold tm_get in H. rewrite (tm_in_find h pm tm Hwf Hin) in H. apply H.
  Qed.

  (* scrape's lookup: an absent torrent counts like [tm_get]'s empty inline map *)
  Lemma fam_counts tm rf h :
    fam_rel tm rf ->
    match tm_find h tm with Some pm => pm_counts pm | None => Ok (0, 0) end = Ok (ref_counts (rf h)).
  Proof.
    intros [_ H]. destruct (H h) as [Hinv Href]. rewrite <- (pm_counts_refines _ _ Hinv Href).
    unfold tm_get. destruct (tm_find h tm); reflexivity.
  Qed.

  Lemma fam_rel_keys tm rf h k :
    fam_rel tm rf -> In k (keys (pm_entries (tm_get h tm))) <-> In k (keys (rf h)).
  Proof. intros [_ H]. destruct (H h) as [_ Hp]. rewrite (keys_perm _ _ Hp). reflexivity. Qed.

  Lemma fam_rel_nil tm rf h : fam_rel tm rf -> rf h = [] -> pm_entries (tm_get h tm) = [].
  Proof.
    intros [_ H] Hr. destruct (H h) as [_ Hp]. unfold pm_refines in Hp. rewrite Hr in Hp.
    apply Permutation_sym, Permutation_nil in Hp. exact Hp.
  Qed.

  Lemma fam_rel_set tm rf h pm e :
    fam_rel tm rf -> pmap_inv cap shrink pm -> pm_refines pm e ->
    fam_rel (tm_set h pm tm) (fun h' => if N.eqb h' h then e else rf h').
  Proof.
    intros [Hwf H] Hi Hr. split; [apply tm_set_wf, Hwf|]. intros h'. rewrite tm_get_set.
    destruct (N.eqb h' h); [split; assumption|apply H].
  Qed.

  Lemma fam_announce_refines (fam : bool -> tmap) (r : rstate) v6 hash key st pid until take o1 o2 :
    (forall f, fam_rel (fam f) (r f)) ->
    exists pm' rep removed,
      pm_announce cap (tm_get hash (fam v6)) key st pid until take o1 o2 = Ok (pm', rep, removed)
      /\ (forall f, fam_rel (if Bool.eqb f v6 then tm_set hash pm' (fam v6) else fam f)
                            (rset r v6 hash (fst (ref_announce (r v6 hash) key st pid until)) f))
      /\ (r_seeders rep, r_leechers rep) = snd (ref_announce (r v6 hash) key st pid until)
      /\ selection_ok key (ref_remove key (r v6 hash)) take (r_peers rep).
  Proof.
    intros H. destruct (proj2 (H v6) hash) as [Hinv Href].
    destruct (pm_announce_refines _ _ key st pid until take o1 o2 Hinv Href)
      as (pm' & rep & Ha & Hinv' & Href' & Hcnt & Hsel).
    do 3 eexists. split; [exact Ha|]. split; [|split; assumption].
    intros f. unfold rset. destruct (Bool.eqb_spec f v6) as [->|_]; cbn [andb]; [|apply H].
    apply fam_rel_set; [apply H|exact Hinv'|exact Href'].
  Qed.

  Definition clean_entry (now : N) (e : N * pmap) : N * pmap := (fst e, pm_clean_pure now (snd e)).

  Definition clean_fam (now : N) (mode : acl_mode) (acl : list N) (tm : tmap) : tmap :=
    filter (fun e => allows mode acl (fst e) && negb (pm_is_empty (snd e))) (map (clean_entry now) tm).

  Lemma fam_clean_refines now mode acl tm rf :
    fam_rel tm rf ->
    fam_rel (clean_fam now mode acl tm) (fun h => if allows mode acl h then ref_clean now (rf h) else []).
  Proof.
    intros H. apply fam_rel_iff in H. destruct H as [Hwf H]. apply fam_rel_iff.
    (* [clean_fam] is a pass in the sense of AssocFacts: [clean_entry now e] unfolds to
       [(fst e, pm_clean_pure now (snd e))] *)
    split; [exact (pass_nodup _ (fun _ => pm_clean_pure now) tm Hwf)|]. intros h.
    rewrite !tm_find_aget. unfold clean_fam. rewrite (aget_pass _ (fun _ => pm_clean_pure now) h tm Hwf).
    specialize (H h). rewrite tm_find_aget in H.
    destruct (aget N.eqb h tm) as [pm|]; cbn [fst snd].
    - destruct (allows mode acl h); cbn [andb]; [|reflexivity].
      destruct H as [Hinv Href]. apply (pm_clean_pure_refines now) in Href.
      destruct (pm_is_empty (pm_clean_pure now pm)) eqn:E; cbn [negb].
      + exact (pm_refines_empty _ _ E Href).
      + split; [apply pm_clean_pure_inv, Hinv|exact Href].
    - rewrite H. destruct (allows mode acl h); reflexivity.
  Qed.

  Lemma clean_fam_nonempty now mode acl tm :
    Forall (fun e => allows mode acl (fst e) = true /\ pm_is_empty (snd e) = false) (clean_fam now mode acl tm).
  Proof.
    apply Forall_forall. intros e Hin. apply filter_In in Hin. destruct Hin as [_ Hf].
    apply andb_prop in Hf. rewrite negb_true_iff in Hf. exact Hf.
  Qed.

  (* [tm] before a cleaning pass and [tm'] after it: the step theorems say of the state after
     the pass only that it refines the cleaned reference, which is the second hypothesis; what
     [tm'] holds is then read off the reference of [tm] *)
  Lemma fam_clean_exact now mode acl tm tm' rf h k p :
    fam_rel tm rf -> fam_rel tm' (fun h => if allows mode acl h then ref_clean now (rf h) else []) ->
    In (k, p) (pm_entries (tm_get h tm'))
    <-> allows mode acl h = true /\ In (k, p) (pm_entries (tm_get h tm)) /\ (now < p_until p)%N.
  Proof.
    intros [_ H] [_ H']. destruct (H h) as [_ Hp]. destruct (H' h) as [_ Hp']. unfold pm_refines in *.
    rewrite Hp', Hp. destruct (allows mode acl h).
    - unfold ref_clean, peer_valid. rewrite filter_In, N.ltb_lt. cbn [snd]. tauto.
    - cbn. split; [tauto|intros [Hf _]; discriminate].
  Qed.
End Common.

(* the lemmas read [cap] and [shrink] off their hypotheses; the definitions take them explicitly *)
Arguments pm_clean_pure : clear implicits.
Arguments fam_rel : clear implicits.
Arguments clean_entry : clear implicits.
Arguments clean_fam : clear implicits.
