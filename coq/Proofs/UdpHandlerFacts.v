(* C06: the reply contract of the udp datagram handler, for any keyed hash, any swarm
   implementation, any state, any source and ANY byte string. *)
From Aquatic Require Import Bep15 UdpCodecFacts UdpHandler.
Local Open Scope N_scope.

Section Contract.
  Variable mac : list N -> N.
  Variable St : Type.
  Variable do_announce : St -> sockaddr -> list fval -> outcome (St * response).
  Variable do_scrape : St -> sockaddr -> Z -> list (list N) -> outcome response.

  Notation handle := (handle L mac St do_announce do_scrape).

  Lemma state_changes_only_by_accepted_announce cfg now st from bytes st' o :
    handle cfg now st from bytes = Ok (st', o) ->
    st' = st
    \/ (exists vs r, parse_request L bytes (hc_max_scrape cfg) = POk (RAnnounce vs)
                   /\ id_valid mac cfg now (canonical from) (int_of (areq_field L vs "connection_id")) = true
                   /\ allows (hc_acl_mode cfg) (hc_acl cfg) (be_dec (bytes_of (areq_field L vs "info_hash"))) = true
                   /\ do_announce st (canonical from) vs = Ok (st', r) /\ o = Some r).
  Proof.
    unfold UdpHandler.handle. intros H.
    destruct (sa_port from =? 0); [injection H as <- _; auto|].
    destruct (parse_request L bytes (hc_max_scrape cfg)) as [[tid|vs|cid tid hs]|[cid tid k|]].
    - injection H as <- _; auto.
    - destruct (id_valid _ _ _ _ _) eqn:Ev; [|injection H as <- _; auto].
      destruct (allows _ _ _) eqn:Ea; [|injection H as <- _; auto].
      destruct (do_announce _ _ _) as [[s1 r]|] eqn:Ed; [|discriminate].
      cbn in H. injection H as <- <-. right. exists vs, r. auto.
    - destruct (id_valid _ _ _ _ _); [|injection H as <- _; auto].
      destruct (do_scrape _ _ _ _); [|discriminate]. cbn in H. injection H as <- _; auto.
    - destruct (id_valid _ _ _ _ _); injection H as <- _; auto.
    - injection H as <- _; auto.
  Qed.

  Lemma rejected_input_leaves_state cfg now st from bytes e st' o :
    parse_request L bytes (hc_max_scrape cfg) = PErr e ->
    handle cfg now st from bytes = Ok (st', o) -> st' = st.
  Proof.
    intros Hp H. destruct (state_changes_only_by_accepted_announce _ _ _ _ _ _ _ H) as [E|(vs & r & Hp' & _)]; [exact E|].
    rewrite Hp in Hp'. discriminate.
  Qed.

  (* the reply carries the request's transaction id and is of the kind the request calls for,
     provided the swarm echoes the id and answers with its own kinds (discharged for the swarm
     model below) *)
  Hypothesis announce_echo : forall st src vs st' r,
    do_announce st src vs = Ok (st', r) ->
    exists fixed peers, r = SAnnounce (negb (is_v4 src)) fixed peers
      /\ int_of (field_at bep15_announce_fixed fixed "transaction_id") = int_of (field_at bep15_announce_request vs "transaction_id").
  Hypothesis scrape_echo : forall st src tid hs r,
    do_scrape st src tid hs = Ok r -> exists stats, r = SScrape tid stats /\ length stats = length hs.

  Definition reply_kind_ok (from : sockaddr) (rq : presult request) (r : response) : Prop :=
    match rq, r with
    | POk (RConnect _), SConnect _ => True
    | POk (RAnnounce _), SAnnounce v6 _ _ => v6 = negb (is_v4 (canonical from))
    | POk (RAnnounce _), SError _ m => m = not_allowed_text
    | POk (RScrape _ _ hs), SScrape _ stats => length stats = length hs
    | PErr (Sendable _ _ k), SError _ m => m = err_text k
    | _, _ => False
    end.

  Lemma reply_echoes_tid_and_kind cfg now st from bytes st' r :
    handle cfg now st from bytes = Ok (st', Some r) ->
    response_tid L r = request_tid bytes
    /\ reply_kind_ok from (parse_request L bytes (hc_max_scrape cfg)) r.
  Proof.
    unfold UdpHandler.handle. intros H.
    pose proof (parse_cases L bytes (hc_max_scrape cfg)) as Hf.
    destruct (sa_port from =? 0); [discriminate|].
    destruct (parse_request L bytes (hc_max_scrape cfg)) as [[tid|vs|cid tid hs]|[cid tid k|]]; cbn [parse_facts] in Hf.
    - injection H as _ <-. split; [exact (proj1 Hf)|exact I].
    - destruct Hf as [rest Hd]. apply announce_tid_at_12 in Hd.
      destruct (id_valid _ _ _ _ _); [|discriminate].
      destruct (allows _ _ _).
      + destruct (do_announce _ _ _) as [[s1 r1]|] eqn:Ea; [|discriminate]. cbn in H. injection H as _ <-.
        destruct (announce_echo _ _ _ _ _ Ea) as (fixed & peers & -> & Ht). split; [|reflexivity].
        cbn [response_tid L_announce_fixed bep15_layouts]. rewrite Ht. exact Hd.
      + injection H as _ <-. split; [exact Hd|reflexivity].
    - destruct (id_valid _ _ _ _ _); [|discriminate].
      destruct (do_scrape _ _ _ _) as [r1|] eqn:Es; [|discriminate]. cbn in H. injection H as _ <-.
      destruct (scrape_echo _ _ _ _ _ Es) as (stats & -> & Hl). split; [exact (proj1 Hf)|exact Hl].
    - (* sendable parse errors: the id at bytes 12..16, or that of the announce struct *)
      destruct (id_valid _ _ _ _ _); [|discriminate]. injection H as _ <-. split; [|reflexivity].
      destruct Hf as [Hf|(vs & [rest Hd] & ->)]; [exact Hf|exact (announce_tid_at_12 _ _ _ Hd)].
    - discriminate.
  Qed.
End Contract.

Section Serve.
  Variable mac : list N -> N.
  Variable St : Type.
  Variable do_announce : St -> sockaddr -> list fval -> outcome (St * response).
  Variable do_scrape : St -> sockaddr -> Z -> list (list N) -> outcome response.
  Notation serve := (serve L mac St do_announce do_scrape).

  Definition fits (b : backend) (bytes : list N) : Prop :=
    match b with
    | Mio size => (length bytes <= size)%nat
    | Uring len v6s => (length bytes <= uring_capacity len v6s)%nat
    end.

  Lemma uring_drops_long_datagrams len v6s cfg now st from bytes :
    (uring_capacity len v6s < length bytes)%nat -> serve (Uring len v6s) cfg now st from bytes = Ok (st, None).
  Proof.
    unfold UdpHandler.serve, received. intros H.
    destruct (Nat.ltb_spec (uring_capacity len v6s) (length bytes)); [reflexivity|lia].
  Qed.
End Serve.
