(* C16: k swarm workers behind the routing of connection.rs behave, reply for reply, like the
   single reference tracker; the framing in the reused buffer does not depend on its past. *)
From Aquatic Require Import RefSwarm PeerMapFacts HttpSwarmRefine HttpConn.

Definition restrict (k j : nat) (r : rstate) : rstate :=
  fun v6 h => if Nat.eqb (route k h) j then r v6 h else [].

Section Workers.
  Variable cfg : hcfg.
  Variable k : nat.
  Hypothesis k_pos : (0 < k)%nat.

  Notation HR := (HR cfg).

  Lemma HR_ext s r r' : (forall v6 h, r v6 h = r' v6 h) -> HR s r -> HR s r'.
  Proof.
    intros E H v6. destruct (H v6) as [Hwf Hrel]. split; [exact Hwf|]. intros h. rewrite <- E. apply Hrel.
  Qed.

  Lemma route_lt h : (route k h < k)%nat.
  Proof. unfold route. apply Nat.mod_upper_bound. lia. Qed.

  Definition SysR (ws : list hstate) (r : rstate) : Prop :=
    length ws = k /\ forall j, (j < k)%nat -> HR (wget ws j) (restrict k j r).

  Lemma wget_wset ws j i s : (j < length ws)%nat -> wget (wset ws j s) i = if Nat.eqb j i then s else wget ws i.
  Proof.
    revert j i. induction ws as [|x t IH]; intros j i H; cbn in *; [lia|].
    destruct j, i; cbn; try reflexivity. apply IH. lia.
  Qed.

  Lemma wset_length ws j s : length (wset ws j s) = length ws.
  Proof. revert j. induction ws as [|x t IH]; intros [|j]; cbn; auto. Qed.

  Lemma SysR_init : SysR (sys_init k) rinit.
  Proof.
    split; [apply repeat_length|]. intros j Hj. unfold wget, sys_init.
    rewrite nth_repeat.
    eapply HR_ext; [|apply HR_init]. intros v6 h. unfold restrict, rinit. destruct (Nat.eqb _ _); reflexivity.
  Qed.

  Definition takes_part (j : nat) (op : hop) : bool :=
    match op with HAnnounce _ hash _ _ _ _ _ _ _ => Nat.eqb (route k hash) j | _ => true end.

  Lemma restrict_step j r op f h :
    restrict k j (fst (hr_step r op)) f h
    = if takes_part j op then fst (hr_step (restrict k j r) op) f h else restrict k j r f h.
  Proof.
    destruct op as [v6 hash key stopped bleft until want o1 o2|v6 hashes|now mode acl]; cbn [takes_part].
    - rewrite !hr_step_announce. unfold restrict, rset.
      destruct (N.eqb_spec h hash) as [->|_]; rewrite ?andb_false_r;
        destruct (Nat.eqb (route k hash) j); reflexivity.
    - reflexivity.
    - cbn [hr_step fst]. unfold restrict. destruct (Nat.eqb (route k h) j); [reflexivity|]. destruct (allows mode acl h); reflexivity.
  Qed.

  Lemma HR_restrict_step s j r op :
    HR s (if takes_part j op then fst (hr_step (restrict k j r) op) else restrict k j r) ->
    HR s (restrict k j (fst (hr_step r op))).
  Proof. apply HR_ext. intros f h. rewrite restrict_step. now destruct (takes_part j op). Qed.

  Lemma hobs_ok_restrict_announce r v6 hash key stopped bleft until want o1 o2 out :
    let op := HAnnounce v6 hash key stopped bleft until want o1 o2 in
    hobs_ok cfg (restrict k (route k hash) r) op out -> hobs_ok cfg r op out.
  Proof. unfold hobs_ok. cbn [hr_step]. unfold restrict. rewrite Nat.eqb_refl. tauto. Qed.

  Lemma part_in j hs h : In h (part k j hs) <-> In h hs /\ route k h = j.
  Proof. unfold part. rewrite filter_In, Nat.eqb_eq. tauto. Qed.

  Lemma part_scrape_spec ws r v6 asked j :
    SysR ws r -> (length asked <= hc_max_scrape cfg)%nat -> (j < k)%nat ->
    exists files, h_scrape cfg (hfam (wget ws j) v6) (part k j asked) = Ok files /\ counts_ok (r v6) files
      /\ forall h, In h (map fst files) <-> In h asked /\ route k h = j.
  Proof.
    intros [_ HS] Hmax Hj.
    destruct (h_scrape_spec cfg _ _ v6 (part k j asked) (HS j Hj)) as (files & E & Hnd & Hk & Hv).
    assert (Hlen : (length (part k j asked) <= hc_max_scrape cfg)%nat)
      by (pose proof (filter_length_le (fun h => Nat.eqb (route k h) j) asked); unfold part; lia).
    rewrite firstn_min_length, (firstn_all2 _ Hlen) in Hk.
    exists files. split; [exact E|]. split; [split; [exact Hnd|]|intros h; rewrite Hk; apply part_in].
    intros h c Hin. rewrite (Hv h c Hin). apply (in_map fst), Hk, part_in in Hin. destruct Hin as [_ Hr].
    cbn [fst] in Hr. unfold restrict. now rewrite Hr, Nat.eqb_refl.
  Qed.

  Lemma scrape_parts_spec ws r v6 asked : SysR ws r -> (length asked <= hc_max_scrape cfg)%nat ->
    forall js, (forall j, In j js -> (j < k)%nat) -> NoDup js ->
    exists files, scrape_parts cfg k ws v6 asked js = Ok files /\ counts_ok (r v6) files
      /\ forall h, In h (map fst files) <-> In h asked /\ In (route k h) js.
  Proof.
    intros HS Hmax js. induction js as [|j t IH]; intros Hjs Hnd; cbn [scrape_parts].
    - exists []. split; [reflexivity|]. split; [split; [constructor|intros h c []]|intros h; cbn; tauto].
    - destruct (part_scrape_spec ws r v6 asked j HS Hmax (Hjs j (or_introl eq_refl))) as (files & -> & Hok1 & Hk1).
      apply NoDup_cons_iff in Hnd. destruct Hnd as [Hnotin Hnd'].
      destruct (IH (fun i Hi => Hjs i (or_intror Hi)) Hnd') as (rest & -> & Hok2 & Hk2).
      cbn [obind]. exists (files ++ rest). split; [reflexivity|]. split.
      + (* worker j's hashes are routed to j, the others' to a worker of [t] *)
        apply counts_ok_app; [exact Hok1|exact Hok2|]. intros h [_ <-]%Hk1 [_ H2]%Hk2. contradiction.
      + intros h. rewrite map_app, in_app_iff, Hk1, Hk2. cbn [In].
        split; [intros [[Ha <-]|[Ha Hin]]|intros [Ha [<-|Hin]]]; auto.
  Qed.

  Lemma clean_all_spec now mode acl ws :
    Forall (fun s => exists r, HR s r) ws ->
    exists cnt, clean_all cfg now mode acl ws = Ok (map (h_clean cfg now mode acl) ws, cnt).
  Proof.
    induction 1 as [|s t [r Hr] _ [[a b] IH]]; cbn [clean_all map]; [eexists; reflexivity|].
    rewrite (h_step_clean_eq cfg s r now mode acl Hr), IH. cbn [obind]. eexists; reflexivity.
  Qed.

  Theorem sys_step_refines ws r op :
    SysR ws r ->
    exists ws' out, sys_step cfg true k ws op = Ok (ws', out) /\ SysR ws' (fst (hr_step r op)) /\ hobs_ok cfg r op out.
  Proof.
    intros HS. pose proof HS as [Hlen HSj].
    destruct op as [v6 hash key stopped bleft until want o1 o2|v6 hashes|now mode acl]; cbn [sys_step].
    - (* the worker the hash is routed to steps as the one-worker tracker does *)
      set (j := route k hash). assert (Hj : (j < k)%nat) by apply route_lt.
      destruct (hstep_refines cfg _ _ (HAnnounce v6 hash key stopped bleft until want o1 o2) (HSj j Hj))
        as (s' & out & -> & HR' & Hobs). cbn [obind].
      do 2 eexists. split; [reflexivity|]. split; [|apply hobs_ok_restrict_announce, Hobs].
      split; [rewrite wset_length; exact Hlen|]. intros i Hi. apply HR_restrict_step. cbn [takes_part]. fold j.
      rewrite wget_wset by lia. destruct (Nat.eqb_spec j i) as [<-|_]; [exact HR'|apply HSj, Hi].
    - (* every worker answers for the hashes routed to it *)
      destruct (scrape_parts_spec ws r v6 (firstn (hc_max_scrape cfg) hashes) HS (firstn_le_length _ _) (seq 0 k))
        as (files & -> & [Hnd Hv] & Hk); [intros j Hj%in_seq; lia|apply seq_NoDup|].
      cbn [obind]. do 2 eexists. split; [reflexivity|]. split; [exact HS|].
      unfold hobs_ok, scrape_ok. cbn [hr_step snd]. split; [exact Hnd|]. split; [|exact Hv].
      intros h. rewrite Hk, firstn_min_length, in_seq. pose proof (route_lt h). split; [tauto|]. intros Hin. split; [exact Hin|lia].
    - (* every worker cleans its own share *)
      destruct (clean_all_spec now mode acl ws) as [[a b] ->].
      { apply Forall_forall. intros s [j [Hj <-]]%(In_nth _ _ hinit). exists (restrict k j r). apply HSj. lia. }
      cbn [obind]. do 2 eexists. split; [reflexivity|]. split; [|exact I].
      split; [rewrite map_length; exact Hlen|]. intros j Hj. unfold wget.
      (* [nth]'s default becomes [h_clean .. hinit] so that [nth] commutes with the [map] of clean_all_spec *)
      rewrite (nth_indep _ hinit (h_clean cfg now mode acl hinit)), map_nth by (rewrite map_length; lia).
      apply HR_restrict_step, h_clean_refines, HSj, Hj.
  Qed.

  Theorem sys_run_refines ops : forall ws r,
    SysR ws r ->
    exists ws' outs, sys_run cfg true k ws ops = Ok (ws', outs) /\ SysR ws' (hr_final r ops) /\ htrace_ok cfg r ops outs.
  Proof.
    induction ops as [|op t IH]; intros ws r HS; cbn [sys_run hr_final].
    - do 2 eexists. split; [reflexivity|]. split; [exact HS|exact I].
    - destruct (sys_step_refines ws r op HS) as (ws1 & out & Hs & HS1 & Hobs). rewrite Hs. cbn [obind].
      destruct (IH ws1 _ HS1) as (ws2 & outs & Hr & HS2 & Htr). rewrite Hr. cbn [obind].
      do 2 eexists. split; [reflexivity|]. split; [exact HS2|]. cbn [htrace_ok]. split; assumption.
  Qed.
End Workers.

Lemma overwrite_length src region : (length src <= length region)%nat -> length (overwrite src region) = length region.
Proof. intros H. unfold overwrite. rewrite app_length, skipn_length. lia. Qed.

(* blanking first makes the field independent of the previous reply *)
Lemma patch_length_fresh HB prev cl : length prev = length HB -> patch_length HB prev cl = overwrite cl HB.
Proof.
  intros H. unfold patch_length. f_equal. unfold overwrite at 1.
  rewrite <- H, skipn_all, app_nil_r. reflexivity.
Qed.
