(* C02: the peer-selection functions are sound, duplicate-free and bounded, for every swarm
   size, every limit and every outcome of the two random offsets. *)
From Aquatic Require Import RefTracker PeerMapFacts.

Lemma im_range_window {A} (l : list A) a n :
  a + n <= length l -> im_range a (a + n) l = Some (firstn n (skipn a l)).
Proof.
  intros H. unfold im_range. destruct (Nat.leb_spec a (a + n)); [|lia].
  destruct (Nat.leb_spec (a + n) (length l)); [|lia]. cbn. f_equal. f_equal. lia.
Qed.

(* The arithmetic heart, shared by the udp/http selection ([half] = take / 2) and the WebTorrent
   one ([half] = max / 2 + 1): a window of [half] entries drawn from each half of the list is in
   bounds and the two do not overlap, whatever the random offsets. *)
Lemma window_offsets_ok len half o1 o2 :
  half <= len / 2 ->
  let middle := len / 2 in
  let off1 := o1 mod Nat.max 1 (middle - half) in
  let off2 := middle + o2 mod (Nat.max (middle + 1) (len - half) - middle) in
  off1 + half <= middle /\ middle <= off2 /\ off2 + half <= len.
Proof.
  intros Hh middle off1 off2.
  assert (2 * middle <= len) by (apply Nat.mul_div_le; lia).
  assert (off1 < Nat.max 1 (middle - half)) by (apply Nat.mod_upper_bound; lia).
  assert (off2 - middle < Nat.max (middle + 1) (len - half) - middle)
    by (unfold off2; rewrite Nat.add_comm, Nat.add_sub; apply Nat.mod_upper_bound; lia).
  unfold off2 in *. lia.
Qed.

(* what both selection functions promise of their result [r]; [n] is its length when the map
   holds more than [take] entries *)
Definition extract_ok (l : entries) (take : nat) (r : list N) (n : nat) : Prop :=
  NoDup r /\ incl r (keys l) /\ length r <= take
  /\ (length l <= take -> r = keys l)
  /\ (take < length l -> length r = n).

Theorem extract_large_spec take l o1 o2 :
  NoDup (keys l) ->
  exists r, extract_large take l o1 o2 = Ok r /\ extract_ok l take r (2 * (take / 2)).
Proof.
  intros Hnd. unfold extract_large, extract_ok.
  destruct (Nat.leb_spec (length l) take) as [Hle|Hgt].
  - exists (keys l). rewrite keys_length. repeat split; auto using incl_refl. lia.
  - assert (Hh : take / 2 <= length l / 2) by (apply Nat.div_le_mono; lia).
    destruct (window_offsets_ok (length l) (take / 2) o1 o2 Hh) as (H1 & H2 & H3).
    rewrite !checked_sub_ok by lia. cbn [obind].
    set (half := take / 2) in *. set (middle := length l / 2) in *.
    set (off1 := o1 mod _) in *. set (off2 := middle + _) in *.
    rewrite !im_range_window by lia. cbn [opt_list]. unfold keys. rewrite <- !firstn_map, <- !skipn_map.
    eexists; split; [reflexivity|]. fold (keys l).
    assert (Hlen : length (firstn half (skipn off1 (keys l)) ++ firstn half (skipn off2 (keys l))) = 2 * half)
      by (rewrite app_length, !window_length by (rewrite keys_length; lia); lia).
    assert (2 * half <= take) by (apply Nat.mul_div_le; lia).
    repeat split; try lia.
    + apply windows_NoDup; [exact Hnd|lia].
    + apply incl_app; apply window_incl.
Qed.

Lemma extract_small_spec take l : NoDup (keys l) -> extract_ok l take (extract_small take l) take.
Proof.
  intros Hnd. unfold extract_ok, extract_small, keys. rewrite <- firstn_map. fold (keys l). repeat split.
  - apply NoDup_firstn, Hnd.
  - apply incl_firstn.
  - apply firstn_le_length.
  - intros H. apply firstn_all2. rewrite keys_length; exact H.
  - intros H. apply firstn_length_le. rewrite keys_length; lia.
Qed.
