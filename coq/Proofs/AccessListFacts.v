(* C11: what the access-list file functions do on each form of input. *)
From Coq Require Import ZifyBool.   (* lia decides the range tests [(lo <=? x) && (x <=? hi)] of [hex_val] *)
From Aquatic Require Import Bytes AccessListFile.
Local Open Scope N_scope.

Lemma mem_in h l : mem h l = true <-> In h l.
Proof.
  unfold mem. rewrite existsb_exists. split.
  - intros [x [Hin Heq]]. apply N.eqb_eq in Heq. subst. exact Hin.
  - intros Hin. exists h. split; [exact Hin|apply N.eqb_refl].
Qed.

Lemma reload_on mode cur io :
  mode <> AclOff ->
  reload mode cur io
  = match io with
    | Some bytes => match parse_file bytes with Some hs => (map le_num hs, true) | None => (cur, false) end
    | None => (cur, false)
    end.
Proof. destruct mode; [reflexivity|reflexivity|congruence]. Qed.

Lemma reload_good mode cur bytes hs :
  mode <> AclOff -> parse_file bytes = Some hs -> reload mode cur (Some bytes) = (map le_num hs, true).
Proof. intros H E. rewrite (reload_on _ _ _ H), E. reflexivity. Qed.

Lemma parse_lines_app a b :
  parse_lines (a ++ b)
  = match parse_lines a, parse_lines b with Some x, Some y => Some (x ++ y) | _, _ => None end.
Proof.
  induction a as [|l t IH]; cbn [app parse_lines]; [destruct (parse_lines b); reflexivity|].
  destruct l; [exact IH|]. rewrite IH.
  destruct (parse_line (n :: l)), (parse_lines t), (parse_lines b); reflexivity.
Qed.

Lemma parse_lines_good ls hs :
  Forall2 (fun l h => l <> [] /\ parse_line l = Some h) ls hs -> parse_lines ls = Some hs.
Proof.
  induction 1 as [|l h ls hs [Hne Hp] _ IH]; cbn [parse_lines]; [reflexivity|].
  destruct l; [congruence|]. rewrite Hp, IH. reflexivity.
Qed.

Lemma parse_lines_some_inv ls hs :
  parse_lines ls = Some hs ->
  Forall2 (fun l h => parse_line l = Some h) (filter (fun l => match l with [] => false | _ => true end) ls) hs.
Proof.
  revert hs. induction ls as [|l t IH]; cbn [parse_lines filter]; intros hs H.
  - inversion H. constructor.
  - destruct l as [|b l']; [apply IH, H|].
    destruct (parse_line (b :: l')) as [h|] eqn:E; [|discriminate].
    destruct (parse_lines t) as [r|]; [|discriminate]. inversion H; subst.
    constructor; [exact E|apply IH; reflexivity].
Qed.

Definition hex_digit (upper : bool) (v : N) : N :=
  if v <? 10 then 48 + v else (if upper then 55 else 87) + v.

(* the hex text of a byte string, digit number j (counted from i) in upper case iff [case j] *)
Fixpoint encode_hex (case : nat -> bool) (i : nat) (bs : list N) : list N :=
  match bs with
  | [] => []
  | b :: t => hex_digit (case i) (b / 16) :: hex_digit (case (S i)) (b mod 16) :: encode_hex case (S (S i)) t
  end.

Lemma hex_val_digit upper v : v < 16 -> hex_val (hex_digit upper v) = Some v.
Proof.
  intros H. unfold hex_digit, hex_val.
  destruct (N.ltb_spec v 10); [|destruct upper].
  - replace ((48 <=? 48 + v) && (48 + v <=? 57)) with true by lia. f_equal. lia.
  - replace ((48 <=? 55 + v) && (55 + v <=? 57)) with false by lia.
    replace ((97 <=? 55 + v) && (55 + v <=? 102)) with false by lia.
    replace ((65 <=? 55 + v) && (55 + v <=? 70)) with true by lia. f_equal. lia.
  - replace ((48 <=? 87 + v) && (87 + v <=? 57)) with false by lia.
    replace ((97 <=? 87 + v) && (87 + v <=? 102)) with true by lia. f_equal. lia.
Qed.

Lemma decode_encode_hex case bs : forall i,
  Forall (fun b => b < 256) bs -> decode_hex (encode_hex case i bs) = Some bs.
Proof.
  induction bs as [|b t IH]; intros i H; cbn [encode_hex decode_hex]; [reflexivity|].
  inversion H as [|? ? Hb Ht]; subst. destruct (nibbles b Hb) as (H1 & H2 & E).
  rewrite !hex_val_digit, IH, E by assumption. reflexivity.
Qed.

Lemma decode_hex_length bs : forall l, decode_hex l = Some bs -> length l = (2 * length bs)%nat.
Proof.
  induction bs as [|x r IH]; intros [|a [|b t]]; cbn [decode_hex]; try discriminate.
  - reflexivity.
  - destruct (hex_val a), (hex_val b), (decode_hex t); discriminate.
  - destruct (hex_val a), (hex_val b), (decode_hex t) as [r'|] eqn:E; try discriminate.
    intros [= _ ->]. cbn [length]. rewrite (IH t E). lia.
Qed.

Lemma drop_ws_all l : forallb is_ws l = true -> forall r, drop_ws (l ++ r) = drop_ws r.
Proof.
  induction l as [|b t IH]; cbn; intros H r; [reflexivity|].
  apply andb_prop in H. destruct H as [Hb Ht]. rewrite Hb. apply IH, Ht.
Qed.

Lemma drop_ws_front ws x r :
  forallb is_ws ws = true -> is_ws x = false -> drop_ws (ws ++ x :: r) = x :: r.
Proof. intros Hws Hx. rewrite drop_ws_all by exact Hws. cbn. rewrite Hx. reflexivity. Qed.

(* the end of a line is stripped as the front of its reversal *)
Lemma drop_ws_end l y ws :
  forallb is_ws ws = true -> is_ws y = false -> rev (drop_ws (rev (l ++ y :: ws))) = l ++ [y].
Proof.
  intros Hws Hy. rewrite rev_app_distr. cbn [rev]. rewrite <- app_assoc. cbn [app].
  rewrite drop_ws_front; [|rewrite forallb_forall in *; intros x Hx; apply Hws, in_rev, Hx|exact Hy].
  cbn [rev]. rewrite rev_involutive. reflexivity.
Qed.

Lemma trim_blank l : forallb is_ws l = true -> trim l = [].
Proof.
  intros H. unfold trim. rewrite <- (app_nil_r l) at 1. rewrite drop_ws_all by exact H. reflexivity.
Qed.
