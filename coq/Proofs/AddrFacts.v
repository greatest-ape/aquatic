(* C03: what [mapped_v4], [forwarded_rev] and [last_piece_aux] do on each form of input. *)
From Aquatic Require Import Addr.
Local Open Scope N_scope.

Definition mapped (a b c d : N) : list N := mapped_prefix ++ [a; b; c; d].

Lemma mapped_v4_spec o v : mapped_v4 o = Some v -> exists a b c d, o = mapped a b c d /\ v = [a; b; c; d].
Proof.
  unfold mapped_v4. destruct (Nat.eqb_spec (length o) 16) as [Hl|]; [|discriminate]. cbn [andb].
  destruct (bytes_eqb (firstn 12 o) mapped_prefix) eqn:E; [|discriminate].
  intros H. apply bytes_eqb_eq in E. assert (Hv : v = skipn 12 o) by congruence. clear H.
  assert (Hs : length v = 4%nat) by (rewrite Hv, skipn_length; lia).
  destruct v as [|a [|b [|c [|d [|? ?]]]]]; try discriminate.
  exists a, b, c, d. split; [|reflexivity].
  unfold mapped. rewrite <- E, Hv. symmetry. apply firstn_skipn.
Qed.

Section Fwd.
  Variable parse_ip : list N -> option (list N).

  (* the scan runs over the reversed header list: the first match decides *)
  Lemma forwarded_rev_first name l v rest :
    Forall (fun h => bytes_eqb (fst h) name = false) l ->
    forwarded_rev parse_ip name (l ++ (name, v) :: rest) = Some (parse_ip (trim' (last_piece v))).
  Proof.
    induction 1 as [|[n v'] t Hh _ IH]; cbn [app forwarded_rev].
    - rewrite (proj2 (bytes_eqb_eq name name) eq_refl). reflexivity.
    - cbn [fst] in Hh. rewrite Hh. exact IH.
  Qed.

  (* 44 is ',' *)
  Lemma last_piece_aux_no_comma cur l : Forall (fun b => b <> 44) l -> last_piece_aux cur l = rev cur ++ l.
  Proof.
    revert cur. induction l as [|b t IH]; intros cur H; cbn.
    - rewrite app_nil_r. reflexivity.
    - inversion H as [|? ? Hb Ht]; subst. destruct (N.eqb_spec b 44); [contradiction|].
      rewrite IH by exact Ht. cbn. rewrite <- app_assoc. reflexivity.
  Qed.

  Theorem last_piece_no_comma v : Forall (fun b => b <> 44) v -> last_piece v = v.
  Proof. intros H. unfold last_piece. rewrite last_piece_aux_no_comma by exact H. reflexivity. Qed.

  (* split(',').last() forgets everything up to a comma *)
  Lemma last_piece_aux_comma cur pre tail : last_piece_aux cur (pre ++ 44 :: tail) = last_piece tail.
  Proof.
    revert cur. induction pre as [|b t IH]; intros cur; cbn; [reflexivity|].
    destruct (N.eqb b 44); apply IH.
  Qed.
End Fwd.
