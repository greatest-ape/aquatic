(* C01: the sequential udp swarm model refines the reference tracker, for every history. *)
From Aquatic Require Import RefSwarm PeerMapRefine SwarmCommon.

Section Swarm.
  Variable cfg : ucfg.
  Let cap := c_cap cfg.
  Notation fam_rel := (fam_rel cap true).

  Definition R (s : ustate) (r : rstate) : Prop := forall v6, fam_rel (ufam s v6) (r v6).

  Lemma R_init : R uinit rinit.
  Proof.
    intros v6. destruct v6; apply fam_rel_empty.
  Qed.

  Lemma ufam_uset s v6 tm f : ufam (uset s v6 tm) f = if Bool.eqb f v6 then tm else ufam s f.
  Proof. destruct f, v6; reflexivity. Qed.

  (* what an observer of a reply sees, relative to the reference state before it.  Left open on
     purpose: the statistics messages of an announce and everything a cleaning pass reports
     (totals, messages, export lines) - those are C20's subject *)
  Definition obs_ok (r : rstate) (op : uop) (out : uout) : Prop :=
    match op, out, snd (r_step r op) with
    | UAnnounce v6 hash key _ _ _ _ want _ _, OAnnounce s l peers _, RAnnounce s' l' =>
        s = s' /\ l = l'
        /\ selection_ok key (ref_remove key (r v6 hash)) (limit_udp want (c_max_resp cfg)) peers
    | UScrape _ _, OScrape st, RScrape st' => st = st'
    | UClean _ _ _, OClean _ _ _ _ _ _, RClean => True
    | _, _, _ => False
    end.

  Lemma scrape_refines tm r v6 hashes :
    fam_rel tm (r v6) -> u_scrape tm hashes = Ok (map (r_scrape1 r v6) hashes).
  Proof.
    intros H. induction hashes as [|h t IH]; cbn [u_scrape map]; [reflexivity|].
    rewrite (fam_counts tm (r v6) h H), IH. cbn [obind]. unfold r_scrape1.
    destruct (ref_counts (r v6 h)) as [s l]. reflexivity.
  Qed.

  Lemma phase1_ok v6 now tm :
    Forall (fun e => pmap_inv cap true (snd e)) tm ->
    exists total msgs lines,
      clean_phase1 cfg v6 now tm = Ok (map (clean_entry cap true now) tm, total, msgs, lines).
  Proof.
    induction 1 as [|[h pm] t Hpm _ IH]; cbn [clean_phase1 map].
    - do 3 eexists; reflexivity.
    - fold cap. rewrite (pm_clean_eq (c_peer_clients cfg) pm now Hpm). unfold ref_counts. cbn [obind].
      destruct IH as (total & msgs & lines & ->). cbn [obind].
      do 3 eexists; reflexivity.
  Qed.

  Lemma u_clean_fam_spec v6 now mode acl tm rf :
    fam_rel tm rf ->
    exists peers msgs lines,
      u_clean_fam cfg v6 now mode acl tm
      = Ok (clean_fam cap true now mode acl tm, (length (clean_fam cap true now mode acl tm), peers), msgs, lines).
  Proof.
    intros H. unfold u_clean_fam.
    destruct (phase1_ok v6 now tm (fam_rel_forall _ _ H)) as (total & msgs & lines & ->).
    do 3 eexists; reflexivity.
  Qed.

  Theorem step_refines s r op :
    R s r ->
    exists s' out, u_step cfg s op = Ok (s', out) /\ R s' (fst (r_step r op)) /\ obs_ok r op out.
  Proof.
    intros HR. destruct op as [v6 hash key ev bleft pid until want o1 o2|v6 hashes|now mode acl].
    - cbn [u_step]. unfold u_announce.
      destruct (fam_announce_refines (ufam s) r v6 hash key (status_of ev bleft) pid until
                  (limit_udp want (c_max_resp cfg)) o1 o2 HR)
        as (pm' & rep & removed & Ha & Hfam & Hcnt & Hsel).
      fold cap. rewrite Ha. cbn [obind]. do 2 eexists. split; [reflexivity|].
      unfold obs_ok. cbn [r_step].
      destruct (ref_announce (r v6 hash) key (status_of ev bleft) pid until) as [e' [s0 l0]].
      cbn [fst snd] in *. split.
      + intros f. rewrite ufam_uset. apply Hfam.
      + injection Hcnt as -> ->. split; [reflexivity|]. split; [reflexivity|exact Hsel].
    - cbn [u_step]. rewrite (scrape_refines _ r v6 hashes (HR v6)). cbn [obind].
      do 2 eexists. split; [reflexivity|]. split; [exact HR|]. unfold obs_ok; cbn. reflexivity.
    - cbn [u_step]. unfold u_clean.
      destruct (u_clean_fam_spec false now mode acl _ _ (HR false)) as (p4 & m4 & l4 & H4).
      destruct (u_clean_fam_spec true now mode acl _ _ (HR true)) as (p6 & m6 & l6 & H6).
      cbn [ufam] in H4, H6. rewrite H4. cbn [obind]. rewrite H6. cbn [obind].
      do 2 eexists. split; [reflexivity|]. split; [|exact I].
      intros f. cbn [r_step fst]. destruct f; apply fam_clean_refines; [exact (HR true)|exact (HR false)].
  Qed.

  (* a cleaning pass keeps exactly the unexpired entries of the permitted torrents (C10, C11) *)
  Lemma clean_exact s r now mode acl :
    R s r ->
    exists s' out, u_step cfg s (UClean now mode acl) = Ok (s', out)
      /\ forall v6 h k p,
           In (k, p) (pm_entries (tm_get h (ufam s' v6)))
           <-> allows mode acl h = true /\ In (k, p) (pm_entries (tm_get h (ufam s v6))) /\ (now < p_until p)%N.
  Proof.
    intros HR. destruct (step_refines s r (UClean now mode acl) HR) as (s' & out & Hs & HR' & _).
    exists s', out. split; [exact Hs|]. intros v6 h k p.
    exact (fam_clean_exact now mode acl _ _ _ h k p (HR v6) (HR' v6)).
  Qed.

  Fixpoint trace_ok (r : rstate) (ops : list uop) (outs : list uout) : Prop :=
    match ops, outs with
    | [], [] => True
    | op :: ops', out :: outs' => obs_ok r op out /\ trace_ok (fst (r_step r op)) ops' outs'
    | _, _ => False
    end.

  Theorem run_refines ops : forall s r,
    R s r ->
    exists s' outs, u_run cfg s ops = Ok (s', outs) /\ R s' (r_final r ops) /\ trace_ok r ops outs.
  Proof.
    induction ops as [|op t IH]; intros s r HR; cbn [u_run r_final].
    - do 2 eexists. split; [reflexivity|]. split; [exact HR|exact I].
    - destruct (step_refines s r op HR) as (s1 & out & Hs & HR1 & Hobs).
      rewrite Hs. cbn [obind].
      destruct (IH s1 _ HR1) as (s2 & outs & Hr & HR2 & Htr).
      rewrite Hr. cbn [obind].
      do 2 eexists. split; [reflexivity|]. split; [exact HR2|]. cbn [trace_ok]. split; assumption.
  Qed.
End Swarm.