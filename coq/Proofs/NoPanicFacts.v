(* C12: the run function of the WebTorrent swarm model. *)
From Aquatic Require Import WsSwarm.

Fixpoint ws_run (strict : bool) (cfg : wcfg) (s : wstate) (ops : list wop) : outcome (wstate * list (list wout)) :=
  match ops with
  | [] => Ok (s, [])
  | op :: t =>
      match ws_step_gen strict cfg s op with
      | Panic => Panic
      | Ok (s', o) => match ws_run strict cfg s' t with
                      | Panic => Panic
                      | Ok (s'', os) => Ok (s'', o :: os)
                      end
      end
  end.
