(* C04: the interleaving model of the shared udp swarm state refines the sequential reference
   tracker under EVERY schedule of ANY number of threads: each instruction is either a stutter
   or the one atomic effect (linearization point) of its operation. *)
From Aquatic Require Import WsSwarm PeerMapFacts PeerMapRefine SwarmCommon UdpConcurrent.
Local Open Scope N_scope.

(* the shard map and the cell store are the association lists of AssocFacts *)
Lemma lookup_aget {V} k (l : list (N * V)) : lookup k l = aget N.eqb k l.
Proof. induction l as [|[k' v] t IH]; cbn; [reflexivity|]. now rewrite IH. Qed.

Lemma update_aput {V} k (v : V) l : update k v l = aput N.eqb k v l.
Proof. induction l as [|[k' v'] t IH]; cbn; [reflexivity|]. now rewrite IH. Qed.

Lemma lookup_update {V} k k' (v : V) l : lookup k' (update k v l) = if N.eqb k' k then Some v else lookup k' l.
Proof. rewrite !lookup_aget, update_aput. apply aget_aput. Qed.

Lemma lookup_remove {V} k k' (l : list (N * V)) : lookup k' (remove_key k l) = if N.eqb k' k then None else lookup k' l.
Proof. rewrite !lookup_aget. apply aget_aremove. Qed.

Lemma set_thread_nth ts me t i : (me < length ts)%nat ->
  nth_error (set_thread ts me t) i = if Nat.eqb i me then Some t else nth_error ts i.
Proof.
  revert me i. induction ts as [|x r IH]; intros me i H; cbn in H; [lia|].
  destruct me; cbn.
  - destruct i; reflexivity.
  - destruct i; cbn; [reflexivity|]. apply IH. lia.
Qed.

Lemma in_set_thread ts me t x : In x (set_thread ts me t) -> x = t \/ In x ts.
Proof.
  revert me. induction ts as [|y r IH]; intros [|me] H; cbn in H; try contradiction.
  - destruct H as [<-|H]; cbn; auto.
  - destruct H as [<-|H%IH]; cbn; [auto|tauto].
Qed.

Lemma holders_zero s c : holders s c = 0%nat -> forall t h, In t (cs_threads s) -> t_held t <> Some (h, c).
Proof.
  unfold holders. intros H t h Hin Ht.
  assert (Hf : In t (filter (holds c) (cs_threads s))).
  { apply filter_In. split; [exact Hin|]. unfold holds. rewrite Ht. apply N.eqb_refl. }
  destruct (filter (holds c) (cs_threads s)); [contradiction|discriminate].
Qed.

Section Conc.
  Variable cap : nat.
  Notation pinv := (pmap_inv cap true).

  Definition rupd (r : N -> entries) (h : N) (e : entries) : N -> entries := fun h' => if N.eqb h' h then e else r h'.

  Definition Inv (s : cstate) : Prop :=
    (forall t h c, In t (cs_threads s) -> t_held t = Some (h, c) -> lookup h (cs_map s) = Some c)
    /\ (forall h c, lookup h (cs_map s) = Some c -> c < cs_next s)
    /\ (forall h1 h2 c, lookup h1 (cs_map s) = Some c -> lookup h2 (cs_map s) = Some c -> h1 = h2).

  Definition Sim (s : cstate) (r : N -> entries) : Prop :=
    forall h, pinv (abs_pm s h) /\ pm_refines (abs_pm s h) (r h).

  (* what one instruction does to the reference tracker and what it may reply: the sequential
     semantics of the operation it belongs to, or nothing.  IAnn2 and ICl2 act on the torrent of
     the held cell, as [exec] does: the hash they carry themselves is ignored *)
  Definition lin (r : N -> entries) (held : option (N * N)) (i : instr) (ev : list event) (r' : N -> entries) : Prop :=
    match i, held with
    | IAnn2 _ a, Some (h, _) =>
        let '(e', (se, le)) := ref_announce (r h) (a_key a) (a_st a) (a_pid a) (a_until a) in
        (forall x, r' x = rupd r h e' x)
        /\ exists peers, ev = [EAnnounce se le peers]
             /\ selection_ok (a_key a) (ref_remove (a_key a) (r h)) (a_take a) peers
    | IScr h, _ => (forall x, r' x = r x) /\ ev = [EScrape (fst (ref_counts (r h))) (snd (ref_counts (r h)))]
    | ICl2 _ now, Some (h, _) =>
        (forall x, r' x = rupd r h (ref_clean now (r h)) x)
        /\ ev = [ECleaned (fst (ref_counts (ref_clean now (r h)))) (snd (ref_counts (ref_clean now (r h))))]
    | IScrEnd, _ => (forall x, r' x = r x) /\ ev = [EScrapeEnd]
    | _, _ => (forall x, r' x = r x) /\ ev = []
    end.

  Lemma Sim_ext s r r' : (forall x, r' x = r x) -> Sim s r -> Sim s r'.
  Proof. intros E H h. rewrite E. apply H. Qed.

  Definition with_parts (s : cstate) (m : list (N * N)) (cells : list (N * pmap)) (nx : N) (ts : list thread) : cstate :=
    mkCstate m cells nx ts.

  (* the first clause of [Inv], for one thread *)
  Definition held_mapped (s : cstate) (held : option (N * N)) : Prop :=
    forall h c, held = Some (h, c) -> lookup h (cs_map s) = Some c.

  (* [Inv] and [Sim] after each kind of change to the shared state; thread [me] becomes [t'].
     [Sim] sees the state only through [abs_pm], so the thread list is any. *)
  Lemma Inv_same_map s me t' cells :
    Inv s -> held_mapped s (t_held t') -> Inv (mkCstate (cs_map s) cells (cs_next s) (set_thread (cs_threads s) me t')).
  Proof.
    intros (I1 & I2 & I3) Hh. split; [|split; assumption].
    intros t h c [->|Hin]%in_set_thread; [apply Hh|apply I1, Hin].
  Qed.

  (* a write into a mapped cell shows under its torrent only: the map is injective *)
  Lemma Sim_write s r h0 c pm' e nx ts :
    Inv s -> lookup h0 (cs_map s) = Some c -> pinv pm' -> pm_refines pm' e -> Sim s r ->
    Sim (mkCstate (cs_map s) (update c pm' (cs_cells s)) nx ts) (rupd r h0 e).
  Proof.
    intros (_ & _ & Hinj) Hm Hinv Href HS h. specialize (HS h).
    unfold rupd, abs_pm, cell_of in *. cbn [cs_map cs_cells].
    destruct (N.eqb_spec h h0) as [->|Hne].
    - rewrite Hm, lookup_update, N.eqb_refl. split; assumption.
    - destruct (lookup h (cs_map s)) as [c'|] eqn:El; [|exact HS].
      rewrite lookup_update. destruct (N.eqb_spec c' c) as [->|]; [|exact HS].
      destruct Hne. eapply Hinj; eassumption.
  Qed.

  Lemma Inv_create s me code h cells :
    Inv s -> lookup h (cs_map s) = None ->
    Inv (mkCstate (update h (cs_next s) (cs_map s)) cells (cs_next s + 1)
                  (set_thread (cs_threads s) me (mkThread code (Some (h, cs_next s))))).
  Proof.
    intros (I1 & I2 & I3) El.
    assert (Hold : forall h' c', lookup h' (update h (cs_next s) (cs_map s)) = Some c' ->
                     h' = h /\ c' = cs_next s \/ lookup h' (cs_map s) = Some c' /\ c' < cs_next s).
    { intros h' c' E. rewrite lookup_update in E. destruct (N.eqb_spec h' h) as [->|Hne].
      - injection E as <-. left. split; reflexivity.
      - right. split; [exact E|eapply I2; exact E]. }
    split; [|split]; cbn [cs_map cs_next cs_threads].
    - intros t h' c' [->|Hin]%in_set_thread Ht; rewrite lookup_update.
      + injection Ht as <- <-. rewrite N.eqb_refl. reflexivity.
      + pose proof (I1 _ _ _ Hin Ht) as E. destruct (N.eqb_spec h' h) as [->|]; [congruence|exact E].
    - intros h' c' E. apply Hold in E. lia.
    - (* the new cell id is not below [cs_next], so it clashes with no mapped one *)
      intros h1 h2 c' E1 E2. apply Hold in E1, E2.
      destruct E1 as [[-> ->]|[E1 L1]], E2 as [[-> E]|[E2 L2]]; try reflexivity; try lia. eapply I3; eassumption.
  Qed.

  (* a fresh empty cell is what an absent torrent already looked like; no mapped cell is fresh *)
  Lemma Sim_create s r h nx ts :
    Inv s -> lookup h (cs_map s) = None -> Sim s r ->
    Sim (mkCstate (update h (cs_next s) (cs_map s)) (update (cs_next s) (Small []) (cs_cells s)) nx ts) r.
  Proof.
    intros (_ & Hlt & _) Hm HS x. specialize (HS x).
    unfold abs_pm, cell_of in *. cbn [cs_map cs_cells]. rewrite lookup_update.
    destruct (N.eqb_spec x h) as [->|Hne].
    - rewrite lookup_update, N.eqb_refl. rewrite Hm in HS. exact HS.
    - destruct (lookup x (cs_map s)) as [c|] eqn:El; [|exact HS].
      rewrite lookup_update. destruct (N.eqb_spec c (cs_next s)) as [->|]; [|exact HS]. apply Hlt in El. lia.
  Qed.

  (* the guard of phase 2: nobody holds a clone of the unlinked cell *)
  Lemma Inv_remove s me t' h c cells :
    Inv s -> lookup h (cs_map s) = Some c -> holders s c = 0%nat -> held_mapped s (t_held t') -> t_held t' <> Some (h, c) ->
    Inv (mkCstate (remove_key h (cs_map s)) cells (cs_next s) (set_thread (cs_threads s) me t')).
  Proof.
    intros (I1 & I2 & I3) El Hnone Hh Hc.
    assert (Hsub : forall h' c', lookup h' (remove_key h (cs_map s)) = Some c' -> lookup h' (cs_map s) = Some c').
    { intros h' c' E. rewrite lookup_remove in E. destruct (N.eqb h' h); [discriminate|exact E]. }
    split; [|split]; cbn [cs_map cs_next cs_threads].
    - intros t h' c' Hin Ht.
      assert (Hold : lookup h' (cs_map s) = Some c' /\ t_held t <> Some (h, c)).
      { apply in_set_thread in Hin. destruct Hin as [->|Hin]; [split; [apply Hh; exact Ht|exact Hc]|].
        split; [eapply I1; eassumption|apply (holders_zero s c Hnone), Hin]. }
      destruct Hold as [E Hn]. rewrite lookup_remove. destruct (N.eqb_spec h' h) as [->|]; [|exact E].
      congruence.
    - intros h' c' E. eapply I2, Hsub, E.
    - intros h1 h2 c' E1 E2. eapply I3; apply Hsub; eassumption.
  Qed.

  (* an unlinked torrent was empty, which is what absence looks like *)
  Lemma Sim_remove s r h c nx ts :
    lookup h (cs_map s) = Some c -> pm_is_empty (cell_of s c) = true -> Sim s r ->
    Sim (mkCstate (remove_key h (cs_map s)) (cs_cells s) nx ts) r.
  Proof.
    intros El Hempty HS x. specialize (HS x). unfold abs_pm in *. cbn [cs_map cs_cells]. rewrite lookup_remove.
    destruct (N.eqb_spec x h) as [->|_]; [|exact HS].
    rewrite El in HS. rewrite (pm_refines_empty _ _ Hempty (proj2 HS)). split; [apply small_nil_inv|constructor].
  Qed.

  (* program shape: an IAnn2 is only ever reached holding a cell.  [b]: the thread is known to
     hold one when it reaches [code] (an IAnn1 sets it; an IAnn2, ICl1 or IDrop clears it) *)
  Fixpoint wf_code (b : bool) (code : list instr) : bool :=
    match code with
    | [] => true
    | IAnn1 _ :: t => wf_code true t
    | IAnn2 _ _ :: t => b && wf_code false t
    | ICl1 _ :: t | IDrop :: t => wf_code false t
    | _ :: t => wf_code b t
    end.

  Definition shaped (t : thread) : Prop :=
    exists b, (b = true -> t_held t <> None) /\ wf_code b (t_code t) = true.

  (* no program puts an IAnn2 anywhere but behind its IAnn1: [wf_code false] computes through
     the block of each hash of a scrape and of a cleaning pass *)
  Lemma prog_shaped o : wf_code false (prog_of o) = true.
  Proof.
    destruct o as [h a|hs|now hs]; cbn [prog_of]; [reflexivity| |].
    - induction hs as [|h t IH]; cbn [map concat app wf_code]; [reflexivity|exact IH].
    - assert (H3 : wf_code false ([IProbe] ++ map ICl3 hs ++ [IProbe]) = true).
      { cbn [app wf_code]. induction hs as [|h t IH]; cbn [map app wf_code]; [reflexivity|exact IH]. }
      revert H3. generalize ([IProbe] ++ map ICl3 hs ++ [IProbe]) as rest. intros rest H3.
      induction hs as [|h t IH]; cbn [map concat app wf_code]; [exact H3|exact IH].
  Qed.

  Definition AllShaped (s : cstate) : Prop := forall t, In t (cs_threads s) -> shaped t.

  Lemma cinit_shaped ops : AllShaped (cinit ops).
  Proof.
    intros t Hin. cbn in Hin. apply in_map_iff in Hin. destruct Hin as (o & <- & _).
    exists false. split; [discriminate|apply prog_shaped].
  Qed.

  Lemma AllShaped_set_thread s m cells nx me t :
    AllShaped s -> shaped t -> AllShaped (mkCstate m cells nx (set_thread (cs_threads s) me t)).
  Proof.
    intros HSh Ht x [->|Hin]%in_set_thread; [exact Ht|apply HSh, Hin].
  Qed.

  Lemma shaped_ann2 h a code held : shaped (mkThread (IAnn2 h a :: code) held) -> held <> None.
  Proof. intros (b & Hb & Hw). cbn in Hb, Hw. apply andb_prop in Hw. apply Hb, Hw. Qed.

  Lemma exec_shaped g s me held i code m cells nx held' ev :
    shaped (mkThread (i :: code) held) ->
    exec cap g s me held i = Ok (m, cells, nx, held', ev) -> shaped (mkThread code held').
  Proof.
    intros (b & Hb & Hw) He. cbn [t_code t_held] in *.
    assert (Hsame : held' = held -> wf_code b code = true -> shaped (mkThread code held')).
    { intros -> Hw'. exists b. split; assumption. }
    destruct i as [h|h a|h| |h|h now| |h| | ]; cbn [wf_code exec] in Hw, He.
    - (* IAnn1: holds a cell afterwards, found or created *)
      exists true. split; [|exact Hw]. intros _. destruct (lookup h (cs_map s)); injection He as _ _ _ <- _; discriminate.
    - (* IAnn2: the rest is shaped without a cell *)
      apply andb_prop in Hw. exists false. split; [discriminate|apply Hw].
    - apply obind_ok in He as ([se le] & _ & He). apply Hsame; [congruence|exact Hw].
    - apply Hsame; [congruence|exact Hw].
    - exists false. split; [discriminate|exact Hw].
    - (* ICl2: keeps what it holds *)
      apply Hsame; [|exact Hw]. destruct held as [[h0 c]|]; [|congruence].
      apply obind_ok in He as ([[pm' [se le]] msgs] & _ & He). congruence.
    - exists false. split; [discriminate|exact Hw].
    - apply Hsame; [|exact Hw]. destruct (lookup h (cs_map s)); [destruct (_ && _)|]; congruence.
    - apply Hsame; [congruence|exact Hw].
    - apply Hsame; [congruence|exact Hw].
  Qed.

  (* what is asked of the outcome of the head instruction [i] of thread [me] *)
  Inductive step_ok s r me held i code : outcome (list (N * N) * list (N * pmap) * N * option (N * N) * list event) -> Prop :=
  | StepOk m cells nx held' ev r' :
      lin r held i ev r' ->
      Inv (mkCstate m cells nx (set_thread (cs_threads s) me (mkThread code held'))) ->
      Sim (mkCstate m cells nx (set_thread (cs_threads s) me (mkThread code held'))) r' ->
      step_ok s r me held i code (Ok (m, cells, nx, held', ev)).

  Lemma held_cell s r h c : Sim s r -> lookup h (cs_map s) = Some c -> pinv (cell_of s c) /\ pm_refines (cell_of s c) (r h).
  Proof. intros HS Hmap. specialize (HS h). unfold abs_pm in HS. rewrite Hmap in HS. exact HS. Qed.

  (* an instruction that leaves map and cells alone and is a stutter for the reference *)
  Lemma quiet {s r me held i code held' ev} :
    Inv s -> Sim s r -> held_mapped s held' -> lin r held i ev r ->
    step_ok s r me held i code (Ok (cs_map s, cs_cells s, cs_next s, held', ev)).
  Proof. intros HI HS Hh Hl. apply StepOk with (r' := r); [exact Hl|apply Inv_same_map; assumption|exact HS]. Qed.

  (* a write to the held cell that the reference matches on the held torrent *)
  Lemma writes {s r me h c i code held' pm' ev} e :
    Inv s -> Sim s r -> lookup h (cs_map s) = Some c -> held_mapped s held' -> pinv pm' -> pm_refines pm' e ->
    lin r (Some (h, c)) i ev (rupd r h e) ->
    step_ok s r me (Some (h, c)) i code (Ok (cs_map s, update c pm' (cs_cells s), cs_next s, held', ev)).
  Proof.
    intros HI HS Hmap Hh Hinv Href Hl.
    apply StepOk with (r' := rupd r h e); [exact Hl|apply Inv_same_map; assumption|apply Sim_write; assumption].
  Qed.

  Lemma exec_simulates s r me held i code :
    Inv s -> Sim s r -> In (mkThread (i :: code) held) (cs_threads s) -> shaped (mkThread (i :: code) held) ->
    step_ok s r me held i code (exec cap true s me held i).
  Proof.
    intros HI HS Hin Hshape. assert (Hheld : held_mapped s held) by (intros h c; exact (proj1 HI _ h c Hin)).
    destruct i as [h|h a|h| |h|h now| |h| | ]; cbn [exec].
    - (* IAnn1: the mapped cell, or a fresh one created under the same lock *)
      destruct (lookup h (cs_map s)) as [c|] eqn:El.
      + apply (quiet HI HS); [intros h' c' [= <- <-]; exact El|split; reflexivity].
      + apply StepOk with (r' := r); [split; reflexivity|apply Inv_create; assumption|apply Sim_create; assumption].
    - (* IAnn2: the reference's announce of the held torrent *)
      destruct held as [[h0 c]|]; [|destruct (shaped_ann2 _ _ _ _ Hshape eq_refl)].
      pose proof (Hheld _ _ eq_refl) as Hmap. destruct (held_cell s r h0 c HS Hmap) as [Hinv Href].
      destruct (pm_announce_refines _ _ (a_key a) (a_st a) (a_pid a) (a_until a) (a_take a) (a_o1 a) (a_o2 a) Hinv Href)
        as (pm' & rep & -> & Hinv' & Href' & Hcnt & Hsel).
      cbn [obind]. destruct (ref_announce (r h0) (a_key a) (a_st a) (a_pid a) (a_until a)) as [e' [se le]] eqn:Er.
      cbn [fst snd] in *. injection Hcnt as <- <-.
      apply (writes e' HI HS Hmap); [discriminate|exact Hinv'|exact Href'|].
      cbn [lin]. rewrite Er. split; [reflexivity|]. exists (r_peers rep). split; [reflexivity|exact Hsel].
    - (* IScr: the reference's counts *)
      destruct (HS h) as [Hinv Href]. rewrite (pm_counts_refines _ _ Hinv Href).
      destruct (ref_counts (r h)) as [se le] eqn:Ec. cbn [obind].
      apply (quiet HI HS); [exact Hheld|]. cbn [lin]. rewrite Ec. split; reflexivity.
    - apply (quiet HI HS); [exact Hheld|split; reflexivity].
    - (* ICl1: a clone of the mapped cell, if there is one *)
      apply (quiet HI HS); [|split; reflexivity].
      destruct (lookup h (cs_map s)) as [c|] eqn:El; [intros h' c' [= <- <-]; exact El|discriminate].
    - (* ICl2: the reference's expiry of the held torrent *)
      destruct held as [[h0 c]|]; [|apply (quiet HI HS); [exact Hheld|split; reflexivity]].
      pose proof (Hheld _ _ eq_refl) as Hmap. destruct (held_cell s r h0 c HS Hmap) as [Hinv Href].
      rewrite (pm_clean_refines false _ _ now Hinv Href). cbn [obind].
      destruct (ref_counts (ref_clean now (r h0))) as [se le] eqn:Ec.
      apply (writes (ref_clean now (r h0)) HI HS Hmap);
        [exact Hheld|apply pm_clean_pure_inv, Hinv|apply pm_clean_pure_refines, Href|].
      cbn [lin]. rewrite Ec. split; reflexivity.
    - apply (quiet HI HS); [discriminate|split; reflexivity].
    - (* ICl3: unlinks an empty cell that nobody holds *)
      destruct (lookup h (cs_map s)) as [c|] eqn:El; [|apply (quiet HI HS); [exact Hheld|split; reflexivity]].
      cbn [negb orb]. destruct (pm_is_empty (cell_of s c) && Nat.eqb (holders s c) 0) eqn:Eg;
        [|apply (quiet HI HS); [exact Hheld|split; reflexivity]].
      apply andb_prop in Eg. destruct Eg as [Hempty Hnone%Nat.eqb_eq].
      apply StepOk with (r' := r); [split; reflexivity| |apply (Sim_remove s r h c); assumption].
      apply (Inv_remove s me _ h c); [exact HI|exact El|exact Hnone|exact Hheld|exact (holders_zero s c Hnone _ h Hin)].
    - apply (quiet HI HS); [exact Hheld|split; reflexivity].
    - apply (quiet HI HS); [exact Hheld|split; reflexivity].
  Qed.

  Theorem micro_simulates s r me res :
    Inv s -> AllShaped s -> Sim s r -> micro cap true s me = Some res ->
    exists s' ev, res = Ok (s', ev) /\ Inv s' /\ AllShaped s'
      /\ exists t i, nth_error (cs_threads s) me = Some t /\ hd_error (t_code t) = Some i
           /\ exists r', lin r (t_held t) i ev r' /\ Sim s' r'.
  Proof.
    intros HI HSh HS Hm. unfold micro in Hm.
    destruct (nth_error (cs_threads s) me) as [[[|i code] held]|] eqn:Et; try discriminate. injection Hm as <-.
    pose proof (nth_error_In _ _ Et) as Hin.
    pose proof (exec_simulates s r me held i code HI HS Hin (HSh _ Hin)) as Hstep.
    inversion Hstep as [m cells nx held' ev r' Hl HI' HS' He]. cbn [obind].
    do 2 eexists. split; [reflexivity|]. split; [exact HI'|]. split.
    - apply AllShaped_set_thread; [exact HSh|]. eapply exec_shaped; [apply HSh, Hin|symmetry; exact He].
    - exists (mkThread (i :: code) held), i. split; [reflexivity|]. split; [reflexivity|].
      exists r'. split; [exact Hl|exact HS'].
  Qed.

  Inductive lin_run : (N -> entries) -> list (nat * event) -> (N -> entries) -> Prop :=
  | lr_nil r : lin_run r [] r
  | lr_step r r1 r2 t held i ev evs :
      lin r held i ev r1 -> lin_run r1 evs r2 -> lin_run r (map (fun e => (t, e)) ev ++ evs) r2.

  Theorem run_micro_simulates sched : forall s r,
    Inv s -> AllShaped s -> Sim s r ->
    exists s' evs, run_micro cap true s sched = Ok (s', evs) /\ Inv s' /\ AllShaped s'
      /\ exists r', lin_run r evs r' /\ Sim s' r'.
  Proof.
    induction sched as [|t sched IH]; intros s r HI HSh HS; cbn [run_micro].
    - do 2 eexists. split; [reflexivity|]. split; [exact HI|]. split; [exact HSh|]. exists r. split; [constructor|exact HS].
    - destruct (micro cap true s t) as [res|] eqn:Em; [|apply IH; assumption].
      destruct (micro_simulates s r t res HI HSh HS Em) as (s1 & ev & -> & HI1 & HSh1 & th & i & _ & _ & r1 & Hlin & HS1).
      destruct (IH s1 r1 HI1 HSh1 HS1) as (s2 & evs & Hr & HI2 & HSh2 & r2 & Hl2 & HS2).
      rewrite Hr. cbn [obind]. do 2 eexists. split; [reflexivity|]. split; [exact HI2|]. split; [exact HSh2|].
      exists r2. split; [econstructor; eassumption|exact HS2].
  Qed.

  Lemma cinit_inv ops : Inv (cinit ops).
  Proof.
    split; [|split]; cbn.
    - intros t h c Hin Ht. apply in_map_iff in Hin. destruct Hin as (o & <- & _). discriminate.
    - intros h c E. discriminate.
    - intros h1 h2 c E. discriminate.
  Qed.

  Lemma cinit_sim ops : Sim (cinit ops) (fun _ => []).
  Proof. intros h. unfold abs_pm. cbn. split; [apply small_nil_inv|constructor]. Qed.

  Theorem linearizable ops sched :
    exists s evs, run_micro cap true (cinit ops) sched = Ok (s, evs) /\ Inv s
      /\ exists r, lin_run (fun _ => []) evs r /\ Sim s r.
  Proof.
    destruct (run_micro_simulates sched (cinit ops) (fun _ => []) (cinit_inv ops) (cinit_shaped ops) (cinit_sim ops))
      as (s & evs & Hr & HI & _ & r & Hl & HS).
    exists s, evs. split; [exact Hr|]. split; [exact HI|]. exists r. split; assumption.
  Qed.

  (* no thread ever waits: a thread with code left can always take its step, the step
     does not fail, and it consumes one instruction *)
  Definition remaining (s : cstate) : nat := fold_right (fun t acc => (length (t_code t) + acc)%nat) 0%nat (cs_threads s).

  Lemma remaining_set_thread s m cells nx me i code held held' :
    nth_error (cs_threads s) me = Some (mkThread (i :: code) held) ->
    (remaining (mkCstate m cells nx (set_thread (cs_threads s) me (mkThread code held'))) + 1 = remaining s)%nat.
  Proof.
    unfold remaining. cbn [cs_threads]. generalize (cs_threads s) as ts. intros ts. revert me.
    induction ts as [|x r IH]; intros [|me] H; try discriminate; cbn in *.
    - injection H as ->. cbn. lia.
    - specialize (IH _ H). lia.
  Qed.

  Lemma micro_consumes g s me s' ev : micro cap g s me = Some (Ok (s', ev)) -> (remaining s' + 1 = remaining s)%nat.
  Proof.
    unfold micro. destruct (nth_error (cs_threads s) me) as [[[|i code] held]|] eqn:Et; try discriminate.
    destruct (exec cap g s me held i) as [[[[[m cells] nx] held'] ev0]|]; [|discriminate].
    cbn [obind]. intros [= <- _]. eapply remaining_set_thread, Et.
  Qed.

  Theorem progress s r me t i code :
    Inv s -> AllShaped s -> Sim s r ->
    nth_error (cs_threads s) me = Some t -> t_code t = i :: code ->
    exists s' ev, micro cap true s me = Some (Ok (s', ev)) /\ (remaining s' + 1 = remaining s)%nat.
  Proof.
    intros HI HSh HS Ht Hc. destruct t as [c h]. cbn in Hc. subst c.
    destruct (micro cap true s me) as [res|] eqn:Em; [|unfold micro in Em; rewrite Ht in Em; discriminate].
    destruct (micro_simulates s r me res HI HSh HS Em) as (s' & ev & -> & _).
    exists s', ev. split; [reflexivity|exact (micro_consumes _ _ _ _ _ Em)].
  Qed.
End Conc.
