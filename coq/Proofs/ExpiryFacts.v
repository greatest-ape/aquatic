(* C10: deadlines (ValidUntil). *)
From Aquatic Require Import Expiry.

Lemma vu_valid_iff until now : vu_valid until now = true <-> (now < until)%N.
Proof. unfold vu_valid. apply N.ltb_lt. Qed.

Lemma deadline_saturates sample age now :
  (u32_max < sample + age)%N ->
  valid_until_new sample age = u32_max
  /\ ((now < u32_max)%N -> vu_valid (valid_until_new sample age) now = true).
Proof.
  intros H. unfold valid_until_new. rewrite N.min_r by lia. split; [reflexivity|].
  intros Hn. apply N.ltb_lt, Hn.
Qed.
