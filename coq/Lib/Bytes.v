(* Big-endian integers of fixed width and two's-complement conversion.  A byte is an [N] < 256. *)
From Coq Require Export List NArith ZArith Bool Lia.
Export ListNotations.
Local Open Scope N_scope.

Definition bytes_ok (l : list N) : Prop := Forall (fun b => b < 256) l.

Fixpoint bytes_eqb (a b : list N) : bool :=
  match a, b with
  | [], [] => true
  | x :: a', y :: b' => N.eqb x y && bytes_eqb a' b'
  | _, _ => false
  end.

Lemma bytes_eqb_eq a b : bytes_eqb a b = true <-> a = b.
Proof.
  revert b. induction a as [|x a IH]; intros [|y b]; cbn; try (split; discriminate).
  - tauto.
  - rewrite andb_true_iff, N.eqb_eq, IH. split; [intros [-> ->]; reflexivity|intros [= -> ->]; auto].
Qed.

Definition pow256 (w : nat) : N := 256 ^ N.of_nat w.

Fixpoint be_enc (w : nat) (n : N) : list N :=
  match w with
  | O => []
  | S w' => (n / pow256 w') mod 256 :: be_enc w' n
  end.

Fixpoint be_dec_acc (acc : N) (l : list N) : N :=
  match l with
  | [] => acc
  | b :: t => be_dec_acc (acc * 256 + b) t
  end.

Definition be_dec (l : list N) : N := be_dec_acc 0 l.

Lemma pow256_S w : pow256 (S w) = 256 * pow256 w.
Proof. unfold pow256. rewrite Nat2N.inj_succ, N.pow_succ_r'. reflexivity. Qed.

Lemma pow256_pos w : 0 < pow256 w.
Proof. apply N.neq_0_lt_0, N.pow_nonzero. discriminate. Qed.

Lemma be_enc_length w n : length (be_enc w n) = w.
Proof. induction w as [|w IH]; cbn; [reflexivity|]. rewrite IH. reflexivity. Qed.

Lemma be_enc_ok w n : bytes_ok (be_enc w n).
Proof.
  induction w as [|w IH]; cbn; constructor; [|exact IH].
  apply N.mod_lt. discriminate.
Qed.

(* Horner form to positional form: after this the accumulator never has to be mentioned again *)
Lemma be_dec_acc_eq l : forall acc, be_dec_acc acc l = acc * pow256 (length l) + be_dec l.
Proof.
  unfold be_dec. induction l as [|b t IH]; intros acc; cbn [be_dec_acc length].
  - unfold pow256. cbn. lia.
  - rewrite IH, (IH (0 * 256 + b)), pow256_S. lia.
Qed.

Lemma be_dec_cons b t : be_dec (b :: t) = b * pow256 (length t) + be_dec t.
Proof. apply (be_dec_acc_eq t (0 * 256 + b)). Qed.

Lemma be_dec_bound l : bytes_ok l -> be_dec l < pow256 (length l).
Proof.
  induction 1 as [|b t Hb _ IH]; [reflexivity|].
  rewrite be_dec_cons. cbn [length]. rewrite pow256_S. nia.
Qed.

Lemma be_dec_enc_mod w n : be_dec (be_enc w n) = n mod pow256 w.
Proof.
  induction w as [|w IH]; cbn [be_enc].
  - symmetry. apply N.mod_1_r.
  - rewrite be_dec_cons, IH, be_enc_length, pow256_S.
    rewrite (N.mul_comm 256), N.mod_mul_r by (pose proof (pow256_pos w); lia). lia.
Qed.

Lemma be_dec_enc w n : n < pow256 w -> be_dec (be_enc w n) = n.
Proof. intros H. rewrite be_dec_enc_mod. apply N.mod_small, H. Qed.

Lemma be_dec_acc_app acc a b : be_dec_acc acc (a ++ b) = be_dec_acc (be_dec_acc acc a) b.
Proof. revert acc. induction a as [|x a IH]; intros acc; cbn; [reflexivity|apply IH]. Qed.

Lemma be_enc_dec l : bytes_ok l -> be_enc (length l) (be_dec l) = l.
Proof.
  (* from any accumulator: it ends up in the higher digits, which [be_enc (length l)] never looks at *)
  unfold be_dec. generalize 0 as acc.
  induction l as [|b t IH]; intros acc H; cbn [length be_enc be_dec_acc]; [reflexivity|].
  inversion H as [|? ? Hb Ht]; subst.
  rewrite IH by exact Ht. f_equal.
  pose proof (pow256_pos (length t)) as Hp.
  rewrite be_dec_acc_eq, N.div_add_l by lia. rewrite N.div_small by apply be_dec_bound, Ht.
  rewrite N.add_0_r, N.add_comm, N.mod_add by discriminate. apply N.mod_small, Hb.
Qed.

Definition zpow256 (w : nat) : Z := Z.of_N (pow256 w).

Definition to_unsigned (w : nat) (z : Z) : N := Z.to_N (z mod zpow256 w).

Definition to_signed (w : nat) (n : N) : Z :=
  if (2 * Z.of_N n <? zpow256 w)%Z then Z.of_N n else (Z.of_N n - zpow256 w)%Z.

Definition signed_ok (w : nat) (z : Z) : Prop := (- zpow256 w <= 2 * z < zpow256 w)%Z.

Lemma zpow256_pos w : (0 < zpow256 w)%Z.
Proof. unfold zpow256. pose proof (pow256_pos w). lia. Qed.

Lemma to_unsigned_spec w z : Z.of_N (to_unsigned w z) = (z mod zpow256 w)%Z.
Proof. apply Z2N.id, Z.mod_pos_bound, zpow256_pos. Qed.

Lemma to_unsigned_lt w z : to_unsigned w z < pow256 w.
Proof.
  pose proof (to_unsigned_spec w z). pose proof (Z.mod_pos_bound z _ (zpow256_pos w)).
  unfold zpow256 in *. lia.
Qed.

Lemma zmod_neg m z : (- m <= z < 0 -> z mod m = z + m)%Z.
Proof. intros H. symmetry. apply Z.mod_unique with (q := (-1)%Z); lia. Qed.

Lemma signed_roundtrip w z : signed_ok w z -> to_signed w (to_unsigned w z) = z.
Proof.
  unfold signed_ok, to_signed. intros H. rewrite to_unsigned_spec.
  destruct (Z_lt_le_dec z 0) as [Hneg|Hpos].
  - rewrite zmod_neg by lia. destruct (Z.ltb_spec (2 * (z + zpow256 w)) (zpow256 w)); lia.
  - rewrite Z.mod_small by lia. destruct (Z.ltb_spec (2 * z) (zpow256 w)); lia.
Qed.

Lemma be_signed_roundtrip w z : signed_ok w z -> to_signed w (be_dec (be_enc w (to_unsigned w z))) = z.
Proof. intros H. rewrite be_dec_enc by apply to_unsigned_lt. apply signed_roundtrip, H. Qed.

Lemma unsigned_roundtrip w n : n < pow256 w -> to_unsigned w (to_signed w n) = n.
Proof.
  intros H. assert (Hn : (Z.of_N n < zpow256 w)%Z) by (unfold zpow256; lia).
  apply N2Z.inj. rewrite to_unsigned_spec. unfold to_signed.
  destruct (Z.ltb_spec (2 * Z.of_N n) (zpow256 w)).
  - apply Z.mod_small. lia.
  - rewrite zmod_neg by lia. lia.
Qed.

Lemma to_signed_ok w n : n < pow256 w -> (0 < w)%nat -> signed_ok w (to_signed w n).
Proof.
  intros H _. assert (Hn : (Z.of_N n < zpow256 w)%Z) by (unfold zpow256; lia).
  unfold signed_ok, to_signed. destruct (Z.ltb_spec (2 * Z.of_N n) (zpow256 w)); lia.
Qed.

Lemma nibbles b : b < 256 -> b / 16 < 16 /\ b mod 16 < 16 /\ b / 16 * 16 + b mod 16 = b.
Proof.
  intros H. pose proof (N.div_mod b 16 ltac:(lia)). pose proof (N.mod_lt b 16 ltac:(lia)).
  split; [apply N.div_lt_upper_bound; lia|lia].
Qed.
